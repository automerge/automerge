(* C39 — Strings decoded from untrusted bytes are always valid UTF-8.
   Definitions in Base/Utf8Spec.v; each statement follows in a few lines from the theorems of
   Base/Utf8Proofs.v.

   What is proved.  The model has two byte-level UTF-8 validators, both transcriptions of the
   Unicode Table 3-7 automaton that `std::str::from_utf8` implements:
     Hexane/Rle.v         [Rle.utf8_valid]          (hexane `String::try_unpack`, string columns)
     Store/ChangeChunk.v  [ChangeChunk.utf8_valid]  (the change message, `parse_following_header`).
   The theorems say that these two automata are the same function, that they accept EXACTLY the
   byte strings that are concatenations of shortest-form encodings of Unicode scalar values
   ([well_formed]: a definition by the ENCODER, which never mentions Table 3-7), that an independent
   textbook decoder returns the scalar values on accepted input and nothing on rejected input, and
   therefore that every string the model's column loader or change parser hands out is
   well-formed UTF-8.  All for every byte string, of any length (no bound; "bytes" >= 256 are
   rejected too, so there is no side condition).

   What is NOT proved here.  These are theorems about the validators of the MODEL, which mirror
   `from_utf8`; `from_utf8` itself (the Rust standard library) is trusted to implement Table 3-7.
   That every Rust code path reaches an UNCHECKED accessor only after such a validating load —
   hexane's `String::unpack` uses `std::str::from_utf8_unchecked` on slab bytes, relying on
   `try_unpack` having validated them at load time — is a statement about the control flow of the
   Rust code and is not modelled; it is explored by the harness family `robust`, which feeds
   malformed bytes to every public decoding entry point and checks each string that comes out
   (checker [chk_utf8] of Exec/RobustExec.v ties the implementation's verdict to these validators). *)
From AM Require Import Base.Prelude Base.Utf8Spec Base.Utf8Proofs.
From AM Require Hexane.Rle Store.ChangeChunk.
Local Open Scope N_scope.

(* the two validators of the model are the same function *)
Theorem C39_rle_validator_agrees : forall l : bytes,
  Rle.utf8_valid l = ChangeChunk.utf8_valid l.
Proof. intros l. rewrite rle_valid_decodes, chg_valid_decodes. reflexivity. Qed.

(* soundness + completeness: accepted <-> well-formed (the encoding of some scalar values) *)
Theorem C39_utf8_valid_iff_well_formed : forall l : bytes,
  Rle.utf8_valid l = true <->
  exists cps : list N, Forall (fun c => is_scalar c = true) cps /\ l = concat (map utf8_encode cps).
Proof. exact rle_valid_iff_well_formed. Qed.

Theorem C39_chg_utf8_valid_iff_well_formed : forall l : bytes,
  ChangeChunk.utf8_valid l = true <-> well_formed l.
Proof. exact chg_valid_iff_well_formed. Qed.

(* completeness on its own: no well-formed string is rejected *)
Theorem C39_utf8_valid_complete : forall cps : list N,
  Forall (fun c => is_scalar c = true) cps -> Rle.utf8_valid (concat (map utf8_encode cps)) = true.
Proof. intros cps H. apply rle_valid_iff_well_formed. exists cps. auto. Qed.

(* accepted bytes decode, to scalar values, which re-encode to exactly those bytes *)
Theorem C39_decode_sound : forall l : bytes,
  Rle.utf8_valid l = true ->
  exists cps : list N, utf8_decode l = Some cps /\
    Forall (fun c => is_scalar c = true) cps /\ concat (map utf8_encode cps) = l.
Proof.
  intros l. rewrite rle_valid_decodes. destruct (utf8_decode l) as [cps|] eqn:E; [|discriminate].
  intros _. exists cps. split; [reflexivity|]. apply decode_sound. exact E.
Qed.

(* rejected bytes yield no string *)
Theorem C39_decode_rejects : forall l : bytes,
  Rle.utf8_valid l = false -> utf8_decode l = None.
Proof. intros l. rewrite rle_valid_decodes. destruct (utf8_decode l); [discriminate|reflexivity]. Qed.

(* the decoder on its own (no validator involved): whatever it returns is the unique reading *)
Theorem C39_decoder_sound : forall (l : bytes) (cps : list N),
  utf8_decode l = Some cps ->
  Forall (fun c => is_scalar c = true) cps /\ concat (map utf8_encode cps) = l.
Proof. exact decode_sound. Qed.

Theorem C39_decoder_complete : forall cps : list N,
  Forall (fun c => is_scalar c = true) cps -> utf8_decode (concat (map utf8_encode cps)) = Some cps.
Proof. exact decode_complete. Qed.

(* UTF-8 is uniquely decodable: a well-formed string is the encoding of exactly one list of
   scalar values *)
Theorem C39_encoding_injective : forall cps cps' : list N,
  Forall (fun c => is_scalar c = true) cps -> Forall (fun c => is_scalar c = true) cps' ->
  concat (map utf8_encode cps) = concat (map utf8_encode cps') -> cps = cps'.
Proof. exact encode_all_injective. Qed.

(* hexane `String::try_unpack` (and through it `Option<String>`): the value it returns *)
Theorem C39_str_dec_well_formed : forall b s r : bytes,
  Rle.str_dec b = Some (s, r) -> well_formed s.
Proof. exact str_dec_well_formed. Qed.

(* `Column::<String>::load` (nullable = false) and `Column::<Option<String>>::load` (true):
   every string value of every run of a column the loader accepts, for ANY input bytes *)
Theorem C39_column_strings_well_formed :
  forall (nullable : bool) (b : bytes) (rs : list (N * option bytes)),
  Rle.str_load nullable b = Ok rs ->
  forall (n : N) (s : bytes), In (n, Some s) rs -> well_formed s.
Proof. exact str_load_well_formed. Qed.

(* the same over the expanded value list *)
Theorem C39_column_values_well_formed :
  forall (nullable : bool) (b : bytes) (vs : list (option bytes)),
  Rle.rle_load_vals bytes bytes_eqb Rle.str_dec nullable b = Ok vs ->
  forall s : bytes, In (Some s) vs -> well_formed s.
Proof. exact str_load_vals_well_formed. Qed.

(* the message of a change the parser accepts, for ANY input bytes *)
Theorem C39_change_message_well_formed : forall (b : bytes) (c : ChangeChunk.change_body),
  ChangeChunk.parse_body b = Ok c -> well_formed (ChangeChunk.cb_message c).
Proof. exact parse_body_message_well_formed. Qed.

(* non-vacuity: "é漢😀" = U+00E9 U+6F22 U+1F600 = C3 A9 | E6 BC A2 | F0 9F 98 80 *)
Example C39_sample_nonvacuous :
  let l := [195; 169; 230; 188; 162; 240; 159; 152; 128] in
  Rle.utf8_valid l = true /\ ChangeChunk.utf8_valid l = true /\
  utf8_decode l = Some [233; 28450; 128512] /\
  forallb is_scalar [233; 28450; 128512] = true /\
  concat (map utf8_encode [233; 28450; 128512]) = l.
Proof. vm_compute. repeat split. Qed.

(* the boundaries of the four lengths and of the surrogate gap *)
Example C39_boundaries_nonvacuous :
  map utf8_encode [0; 127; 128; 2047; 2048; 55295; 57344; 65535; 65536; 1114111] =
  [[0]; [127]; [194; 128]; [223; 191]; [224; 160; 128]; [237; 159; 191]; [238; 128; 128];
   [239; 191; 191]; [240; 144; 128; 128]; [244; 143; 191; 191]] /\
  Rle.utf8_valid (concat (map utf8_encode [0; 127; 128; 2047; 2048; 55295; 57344; 65535; 65536; 1114111])) = true /\
  map is_scalar [55295; 55296; 57343; 57344; 1114111; 1114112] = [true; false; false; true; true; false].
Proof. vm_compute. repeat split. Qed.

(* the classic ill-formed sequences: over-long C0 80 / E0 80 80 / F0 80 80 80, surrogate
   ED A0 80, above U+10FFFF F4 90 80 80, truncated E6 BC, lone continuation 80, FF, F5.., and a
   "byte" that is not a byte *)
Example C39_rejects_nonvacuous :
  map Rle.utf8_valid
    [[192; 128]; [193; 191]; [237; 160; 128]; [237; 191; 191]; [244; 144; 128; 128];
     [224; 128; 128]; [224; 159; 191]; [240; 128; 128; 128]; [240; 143; 191; 191];
     [230; 188]; [128]; [191]; [255]; [245; 128; 128; 128]; [248; 136; 128; 128; 128];
     [195]; [195; 40]; [97; 226; 130]; [300]; [195; 425]]
  = repeat false 20 /\
  map ChangeChunk.utf8_valid
    [[192; 128]; [193; 191]; [237; 160; 128]; [237; 191; 191]; [244; 144; 128; 128];
     [224; 128; 128]; [224; 159; 191]; [240; 128; 128; 128]; [240; 143; 191; 191];
     [230; 188]; [128]; [191]; [255]; [245; 128; 128; 128]; [248; 136; 128; 128; 128];
     [195]; [195; 40]; [97; 226; 130]; [300]; [195; 425]]
  = repeat false 20 /\
  map utf8_decode
    [[192; 128]; [193; 191]; [237; 160; 128]; [237; 191; 191]; [244; 144; 128; 128];
     [224; 128; 128]; [224; 159; 191]; [240; 128; 128; 128]; [240; 143; 191; 191];
     [230; 188]; [128]; [191]; [255]; [245; 128; 128; 128]; [248; 136; 128; 128; 128];
     [195]; [195; 40]; [97; 226; 130]; [300]; [195; 425]]
  = repeat None 20.
Proof. vm_compute. repeat split. Qed.

(* the column loader: a literal run of the two strings "é" "漢" loads, and the same column with
   the second string's last byte cut to a non-continuation is rejected *)
Example C39_column_nonvacuous :
  Rle.str_load false [126; 2; 195; 169; 3; 230; 188; 162] = Ok [(1, Some [195; 169]); (1, Some [230; 188; 162])] /\
  Rle.str_load false [126; 2; 195; 169; 3; 230; 188; 40] = Err /\
  Rle.str_load true [2; 2; 237; 160] = Err.
Proof. vm_compute. repeat split. Qed.
