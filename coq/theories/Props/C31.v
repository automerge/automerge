(* C31 — Anonymization preserves document shape.
   Model in Crdt/Anon.v; proofs in Crdt/AnonProofs.v and Crdt/AnonCodeProofs.v, the lines under a statement
   here put theorems of those files together.

   anonymize (anonymize.rs) rebuilds every change with its actor, op ids, object ids, element ids and
   predecessors sent through an actor map, its map keys and mark names through a character substitution,
   its values replaced by fresh values of the same kind and encoded shape (per occurrence), its
   dependencies through the map old hash -> new hash.  That is a RENAMING of the history (Crdt/Anon.v
   [rename]).  The theorems say: the interpretation of a history is equivariant under every renaming whose
   actor map preserves the ORDER of the actors that occur (winners, conflict order and the order of
   concurrently inserted list elements follow op-id order, i.e. counter then actor bytes), whose key map is
   injective on the keys that occur and keeps their character classes, and whose value map keeps kind and
   encoded shape.  The SHAPE (types, nesting, per-element / per-key conflict structure and value kinds,
   string character classes — hence list lengths and text widths in every encoding — with map entries as a
   multiset because renamed keys are listed in a different order) is the same at the final heads and at
   every historical head set, and the change graph is mapped isomorphically.
   The code's actor map (rank in the sorted actor set, written big-endian after a common prefix) IS order
   preserving; the harness family "anon" checks on every generated history that what the implementation
   produced is such a renaming and evaluates both histories in this model. *)
From AM Require Import Base.Prelude Base.Order Crdt.Types Crdt.Interp Crdt.Doc Crdt.Local Crdt.Anon Exec.HistExec
  Crdt.AnonProofs Crdt.AnonCodeProofs.
Local Open Scope N_scope.

(* the interpretation commutes with renaming, up to shape *)
Theorem C31_interp_equivariant : forall R ops, good_on R ops ->
  shape (observe (map (rn_op R) ops)) = shape (observe ops).
Proof. intros R ops G. apply (shape_observe_rn R ops G), incl_refl. Qed.

(* ... at every head set, with the heads sent through the hash map *)
Theorem C31_shape_at_every_heads : forall R appl hs, good_hist R appl hs ->
  shape (obs_at (rename R appl) (map (r_hash R) hs)) = shape (obs_at appl hs).
Proof. exact shape_obs_at_rn. Qed.

(* the change graph is isomorphic: same changes (seq, start_op, op count), dependencies and heads
   through the hash map, ancestors of any head set through the renaming *)
Theorem C31_graph_isomorphic : forall R appl hs, good_hist R appl hs ->
  length (rename R appl) = length appl /\
  (forall c, ch_deps (rn_change R c) = map (r_hash R) (ch_deps c) /\
             length (ch_ops (rn_change R c)) = length (ch_ops c) /\
             ch_seq (rn_change R c) = ch_seq c /\ ch_start (rn_change R c) = ch_start c /\
             ch_actor (rn_change R c) = r_actor R (ch_actor c)) /\
  heads_of (rename R appl) = sortN (map (r_hash R) (heads_of appl)) /\
  ancestors (rename R appl) (map (r_hash R) hs) = rename R (ancestors appl hs).
Proof.
  intros R appl hs H. split; [apply map_length|]. split.
  - intros c. cbn [rn_change ch_deps ch_ops ch_seq ch_start ch_actor]. rewrite map_length. repeat split; reflexivity.
  - split; [apply (heads_rename R appl hs H)|apply (ancestors_rename R appl hs H)].
Qed.

(* equal shapes have equal object types, key counts / sequence lengths and text widths in every encoding *)
Theorem C31_shape_determines : forall e ops1 ops2, shape (observe ops1) = shape (observe ops2) ->
  map oo_type (observe ops1) = map oo_type (observe ops2) /\
  map obj_len (observe ops1) = map obj_len (observe ops2) /\
  map (obj_width e) (observe ops1) = map (obj_width e) (observe ops2).
Proof.
  intros e a b H. rewrite !shape_types, !shape_lens, !(shape_widths e), H. repeat split; reflexivity.
Qed.

(* order preservation on op ids follows from order preservation on the ACTORS that occur, because
   real op ids have a counter >= 1 and the root / head id is not mapped *)
Theorem C31_actor_order_suffices : forall R ops, wf_ids ops ->
  (forall a b, In a (id_actors ops) -> In b (id_actors ops) ->
     bytes_cmp (r_actor R a) (r_actor R b) = bytes_cmp a b) ->
  forall x y, In x (ids_of ops) -> In y (ids_of ops) -> opid_cmp (rn_id R x) (rn_id R y) = opid_cmp x y.
Proof. exact mono_of_actors. Qed.

Theorem C31_wf_checker_sound : forall ops, wf_ids_b ops = true -> wf_ids ops.
Proof. exact wf_ids_b_sound. Qed.

(* the hypotheses are the ones the code satisfies *)

(* Anonymization::actor_map (rank in the sorted set of all actors, 8 big-endian bytes after a common
   prefix): defined on every actor of the table and ORDER PRESERVING, for any prefix *)
Theorem C31_actor_map_order_preserving : forall prefix l a b,
  N.of_nat (length (actor_set l)) <= 18446744073709551616 -> In a l -> In b l ->
  exists x y, anon_actor prefix (actor_set l) a = Ok x /\ anon_actor prefix (actor_set l) b = Ok y /\
              bytes_cmp x y = bytes_cmp a b.
Proof. exact anon_actor_mono. Qed.

(* order preservation (not just injectivity) is needed: swapping two actors changes the conflict order *)
Theorem C31_order_preservation_needed :
  (forall a b, In a (id_actors conflict_ops) -> In b (id_actors conflict_ops) ->
     r_actor swap12 a = r_actor swap12 b -> a = b) /\
  shape (observe (map (rn_op swap12) conflict_ops)) <> shape (observe conflict_ops).
Proof. exact order_needed. Qed.

(* the structural substitution (keys, mark names) keeps the UTF-8 length of every character, whatever
   the tables *)
Theorem C31_key_substitution_keeps_lengths : forall p s, tables_ok p -> Forall valid_char s ->
  map u8w (struct_string p s) = map u8w s.
Proof. exact struct_string_u8w. Qed.

(* it is injective and keeps the character classes of shape.rs (ASCII control / printable ASCII / UTF-8
   length) for every permutation of the ranks: two different keys never become one.  (Before the repair
   bd9e88bf3 of structural_character_from_rank the rank of DEL came out as U+0020 for an original below
   U+0020 and both statements were refuted.) *)
Theorem C31_key_substitution_injective : forall p s1, tables_ok p -> tables_inj p ->
  forall s2, Forall valid_char s1 -> Forall valid_char s2 -> struct_string p s1 = struct_string p s2 -> s1 = s2.
Proof. exact struct_string_inj. Qed.

Theorem C31_key_substitution_keeps_classes : forall p c, tables_ok p -> valid_char c ->
  kclass (struct_replace p c) = kclass c.
Proof. exact struct_replace_kclass. Qed.

(* anonymize_scalar keeps the kind and the encoded shape of a value (UTF-8 length of every character of a
   string, length of bytes, type code of unknown values), whatever is drawn *)
Theorem C31_values_keep_shape : forall p syn fz fu fb v, tables_ok p -> (forall i, syn i < 128) -> scalar_valid v ->
  sshape (anon_scalar p syn fz fu fb v) = sshape v.
Proof. exact anon_scalar_shape. Qed.

(* the finer "retained whitespace" class of shape.rs is not kept: U+00E9 can become U+0085 (whitespace) *)
Theorem C31_content_class_refuted :
  exists p, tables_ok p /\ tables_inj p /\ tables_derange p /\ cclass (content_char p 108 233) <> cclass 233.
Proof. exact content_class_refuted. Qed.

(* the renaming the code builds satisfies the hypotheses of the equivariance theorems, for every prefix,
   every injective table, every value map that keeps shapes and every injective hash map *)
Theorem C31_code_renaming_good : forall prefix p vals incs fh appl hs,
  wf_ids (all_ops appl) ->
  N.of_nat (length (actor_set (hist_actors appl))) <= 18446744073709551616 ->
  tables_ok p -> tables_inj p ->
  (forall k, In k (map_keys (all_ops appl)) -> Forall valid_char k) ->
  (forall o v, In o (all_ops appl) -> op_action o = APut v -> sshape (vals (op_id o) v) = sshape v) ->
  (forall x y, In x (hist_hashes appl hs) -> In y (hist_hashes appl hs) -> fh x = fh y -> x = y) ->
  good_hist (code_renaming prefix (actor_set (hist_actors appl)) p vals incs fh) appl hs.
Proof. exact code_renaming_good. Qed.

Theorem C31_anonymize_preserves_shape : forall prefix p vals incs fh appl hs,
  wf_ids (all_ops appl) ->
  N.of_nat (length (actor_set (hist_actors appl))) <= 18446744073709551616 ->
  tables_ok p -> tables_inj p ->
  (forall k, In k (map_keys (all_ops appl)) -> Forall valid_char k) ->
  (forall o v, In o (all_ops appl) -> op_action o = APut v -> sshape (vals (op_id o) v) = sshape v) ->
  (forall x y, In x (hist_hashes appl hs) -> In y (hist_hashes appl hs) -> fh x = fh y -> x = y) ->
  let R := code_renaming prefix (actor_set (hist_actors appl)) p vals incs fh in
  shape (obs_at (rename R appl) (map fh hs)) = shape (obs_at appl hs).
Proof.
  intros. apply (shape_obs_at_rn R appl hs). apply code_renaming_good; assumption.
Qed.

(* non-vacuity: a two-actor history with a text, concurrent inserts, a conflict between a counter and a
   string on a key that starts with a TAB; the code's renaming with concrete draws *)
Example C31_hypotheses_nonvacuous : good_hist ex_renaming ex_hist [20; 30] /\ good_on ex_renaming (all_ops ex_hist).
Proof. split; [exact ex_good|exact (good_hist_on _ _ _ ex_good)]. Qed.

Example C31_shape_nonvacuous :
  shape (obs_at ex_hist [20; 30]) =
    [ (OMap, [ [[1]; [12; 1]]; [[1; 1]; [7]; [5; 1; 1]] ]);
      (OText, [ [[5; 4]]; [[5; 2]]; [[5; 1]] ]) ] /\
  shape (obs_at (rename ex_renaming ex_hist) [21; 31]) = shape (obs_at ex_hist [20; 30]) /\
  map ch_actor (rename ex_renaming ex_hist) = [[200; 7; 0; 0; 0; 0; 0; 0; 0; 1]; [200; 7; 0; 0; 0; 0; 0; 0; 0; 0]; [200; 7; 0; 0; 0; 0; 0; 0; 0; 1]] /\
  map_keys (all_ops (rename ex_renaming ex_hist)) <> map_keys (all_ops ex_hist).
Proof. repeat split; vm_compute; try reflexivity; discriminate. Qed.
