(* C13 — Truncated storage loads to the last complete save.
   Each statement is a theorem of Store/ChunkProofs.v.  The model (Store/Chunk.v) is the byte-level
   framing and the chunk loops of load / load_changes; the hash, the chunk body parsers, inflate
   and the CRDT-level apply are parameters, so the theorems hold for whatever they are. *)
From AM Require Import Base.Prelude Base.Leb128 Gen.Consts Store.Chunk Store.ChunkProofs.

(* Cut a file of written chunks at ANY byte k.  l1 = the chunks wholly inside the cut.
   Partial loads allowed: the empty document for the empty cut, an error inside the first chunk,
   otherwise exactly what the file cut at the last chunk boundary loads to.
   Strict load: an error unless the cut is a chunk boundary, where it is the load of that file. *)
Theorem C13_truncated_load :
  forall Hsh : bytes -> bytes, (forall x : bytes, 4 <= length (Hsh x)) ->
  forall (C : Type) (body : N -> bytes -> option (list C)) (inflate : bytes -> option bytes)
    (D : Type) (empty : D) (apply : D -> list C -> res D) (queue_empty : D -> bool)
    (l : stored C) (k : nat),
  all_written Hsh C body inflate l -> k <= length (flat C l) ->
  exists l1 l2 : list (bytes * list C * N),
    l = l1 ++ l2 /\
    length (flat C l1) <= k /\
    (forall x l2', l2 = x :: l2' -> k < length (flat C l1) + length (fst (fst x))) /\
    (l2 = [] -> k = length (flat C l)) /\
    load Hsh C body inflate D empty apply queue_empty Ignore (firstn k (flat C l)) =
      match l1 with
      | [] => if Nat.eqb k 0 then Ok empty else Err
      | _ :: _ => load Hsh C body inflate D empty apply queue_empty Ignore (flat C l1)
      end /\
    (k <> length (flat C l1) ->
      load Hsh C body inflate D empty apply queue_empty Strict (firstn k (flat C l)) = Err) /\
    (k = length (flat C l1) ->
      load Hsh C body inflate D empty apply queue_empty Strict (firstn k (flat C l)) =
      load Hsh C body inflate D empty apply queue_empty Strict (flat C l1)).
Proof. exact truncated_load. Qed.

(* what a complete file loads to: every chunk's changes, in order, applied to the empty document *)
Theorem C13_load_complete :
  forall Hsh : bytes -> bytes, (forall x : bytes, 4 <= length (Hsh x)) ->
  forall (C : Type) (body : N -> bytes -> option (list C)) (inflate : bytes -> option bytes)
    (D : Type) (empty : D) (apply : D -> list C -> res D) (queue_empty : D -> bool)
    (x : bytes * list C * N) (l : list (bytes * list C * N)) (m : mode),
  all_written Hsh C body inflate (x :: l) ->
  load Hsh C body inflate D empty apply queue_empty m (flat C (x :: l)) =
    match m with
    | Strict => strict_result C D empty apply queue_empty (snd x) (changes_of C (x :: l))
    | Ignore => apply empty (changes_of C (x :: l))
    end.
Proof. exact load_complete. Qed.

(* the framing is prefix-free: no strict prefix of a written chunk has a parsable header *)
Theorem C13_prefix_free :
  forall Hsh : bytes -> bytes, (forall x : bytes, 4 <= length (Hsh x)) ->
  forall (C : Type) (body : N -> bytes -> option (list C)) (inflate : bytes -> option bytes)
    (b : bytes) (cs : list C) (ty : N) (k : nat),
  written Hsh C body inflate b cs ty -> k < length b -> parse_header (firstn k b) = Err.
Proof. exact prefix_no_header. Qed.

(* neither load ever panics on ANY bytes (the framing layer; apply is the CRDT layer) *)
Theorem C13_load_no_panic :
  forall (Hsh : bytes -> bytes) (C : Type) (body : N -> bytes -> option (list C))
    (inflate : bytes -> option bytes) (D : Type) (empty : D) (apply : D -> list C -> res D)
    (queue_empty : D -> bool) (m : mode) (bs : bytes),
  (forall (d : D) (cs : list C), apply d cs <> Panic) ->
  load Hsh C body inflate D empty apply queue_empty m bs <> Panic.
Proof. exact load_no_panic. Qed.

(* non-vacuity: a toy instance (constant 4-byte hash, every body parses to its bytes) has written
   chunks, and a two-chunk file cut inside its second chunk loads to the first chunk *)
Section Example.
  Let H (_ : bytes) : bytes := [1; 2; 3; 4]%N.
  Let bd (_ : N) (d : bytes) : option (list N) := Some d.
  Let inf (d : bytes) : option bytes := Some d.
  Let ap (d : list N) (cs : list N) : res (list N) := Ok (d ++ cs).
  Let c1 := encode_chunk H CHUNK_DOCUMENT [7; 8]%N.
  Let c2 := encode_chunk H CHUNK_CHANGE [9]%N.
  Example C13_written_exists :
    all_written H N bd inf [(c1, [7; 8]%N, CHUNK_DOCUMENT); (c2, [9]%N, CHUNK_CHANGE)].
  Proof.
    constructor; [|constructor; [|constructor]]; cbn [fst snd]; unfold c1, c2;
      apply w_plain; try reflexivity; discriminate.
  Qed.
  Example C13_cut_inside_second :
    load H N bd inf (list N) [] ap (fun _ => true) Ignore (firstn 15 (c1 ++ c2)) = Ok [7; 8]%N
    /\ load H N bd inf (list N) [] ap (fun _ => true) Strict (firstn 15 (c1 ++ c2)) = Err
    /\ load H N bd inf (list N) [] ap (fun _ => true) Strict (c1 ++ c2) = Ok [7; 8; 9]%N.
  Proof. vm_compute. repeat split. Qed.
End Example.
