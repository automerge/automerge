(* C40 — Loading with string migration turns visible strings into text and nothing else.
   Model: Crdt/Migrate.v, a mirror of Automerge::convert_scalar_strings_to_text (automerge.rs) as load_with_options
   runs it for StringMigration::ConvertToText: every visible Put(Str) op of every map / list object (conflict losers
   included) becomes one conversion (object, map key | list index, string); all conversions run in ONE transaction of
   the loaded document's actor, each as put_object(obj, prop, Text) followed by splice_text(text, 0, 0, s), through the
   editing calls of Crdt/Local.v.  [migrate e ops a] returns the ops of the change the load appends ([] = no change).

   The statements read the document before (ops0 = the ops ascending by id) and after (ops0 ++ new) through
     reg_at ops obj K   — the visible values of a register, ascending id (the last one wins),
     seq_elems ops obj  — the visible elements of a list with their registers, in document order,
     listed ops obj ty K r — K is a key of the map obj, or a visible element of the list obj, and r its register,
     last_str r         — the highest-id visible string of r (None: r shows no string),  no_str r — r shows none,
     text_at ops id     — the characters of the text object id,
   for ANY op set satisfying the decidable well-formedness predicate wf_tx (ids strictly ascending, counters below
   the next op counter), which the family `recon` checks on every generated document.

   What the code does beyond the wording of the property (and the theorems say so): a register that shows a string
   next to non-string conflict siblings (an integer, a counter, an object) ends up holding ONLY the text object — the
   siblings are superseded together with the strings (C40_migrate_text_is_highest_string: the register is exactly
   [(id, text)]); "visible" is per register of any object the document knows, reachable from the root or not. *)
From AM Require Import Base.Prelude Base.Order Crdt.Types Crdt.Interp Crdt.Local Crdt.LocalProofs Crdt.Migrate Crdt.MigrateProofs.
Local Open Scope N_scope.

Theorem C40_migrate_no_visible_string : forall e ops a new,
  wf_tx (begin_tx ops a) -> migrate e ops a = EOk new ->
  let ops' := tx_all (begin_tx ops a) ++ new in
  forall obj ty K r, lookup_type ops' obj = Some ty -> container ty -> listed ops' obj ty K r -> no_str r.
Proof. exact migrate_no_visible_string. Qed.

Theorem C40_migrate_text_is_highest_string : forall e ops a new,
  wf_tx (begin_tx ops a) -> migrate e ops a = EOk new ->
  let ops0 := tx_all (begin_tx ops a) in
  let ops' := ops0 ++ new in
  forall obj ty K r s, lookup_type ops0 obj = Some ty -> listed ops0 obj ty K r -> last_str r = Some s ->
  exists id, reg_at ops' obj K = [(id, VO OText)] /\ lookup_type ops0 id = None /\
             lookup_type ops' id = Some OText /\ text_at ops' id = s.
Proof.
  intros e ops a new W M ops0 ops' obj ty K r s L Li Ls.
  pose proof (migrate_listed e ops a new W M obj ty K r L Li) as R. rewrite Ls in R. exact R.
Qed.

Theorem C40_migrate_others_untouched : forall e ops a new,
  wf_tx (begin_tx ops a) -> migrate e ops a = EOk new ->
  let ops0 := tx_all (begin_tx ops a) in
  let ops' := ops0 ++ new in
  (forall obj ty K r, lookup_type ops0 obj = Some ty -> listed ops0 obj ty K r -> last_str r = None ->
     reg_at ops' obj K = r) /\
  (forall obj ty K, lookup_type ops0 obj = Some ty -> ~ container ty -> reg_at ops' obj K = reg_at ops0 obj K) /\
  (forall obj ty, lookup_type ops0 obj = Some ty ->
     lookup_type ops' obj = Some ty /\ elem_order (obj_ops ops' obj) = elem_order (obj_ops ops0 obj) /\
     map fst (seq_elems ops' obj) = map fst (seq_elems ops0 obj)).
Proof. exact migrate_others_untouched. Qed.

Theorem C40_migrate_noop_no_change : forall e ops a,
  wf_tx (begin_tx ops a) ->
  let ops0 := tx_all (begin_tx ops a) in
  (forall obj ty K r, lookup_type ops0 obj = Some ty -> container ty -> listed ops0 obj ty K r -> no_str r) ->
  migrate e ops a = EOk [].
Proof. exact migrate_noop_no_change. Qed.

(* and conversely: a change is added exactly when some addressable register shows a string *)
Theorem C40_migrate_change_iff : forall e ops a new,
  wf_tx (begin_tx ops a) -> migrate e ops a = EOk new ->
  let ops0 := tx_all (begin_tx ops a) in
  (new = [] <->
   forall obj ty K r, lookup_type ops0 obj = Some ty -> container ty -> listed ops0 obj ty K r -> no_str r).
Proof. exact migrate_change_iff. Qed.

(* the migrating load cannot fail or panic in the migration step *)
Theorem C40_migrate_total : forall e ops a, wf_tx (begin_tx ops a) -> exists new, migrate e ops a = EOk new.
Proof. intros e ops a W. destruct (migrate_run e ops a W) as (t' & M & _). eexists. exact M. Qed.

(* non-vacuity: two actors; root key "a" shows the string "x" (1@[1]), the string "yz" (1@[2]) and — as a
   conflict sibling — nothing else; key "n" shows an integer next to the string "q"; a list with a string element;
   a text object whose characters are strings and stay as they are *)
Definition ex_ops : list op :=
  [ mkOp (1, [1]) root_id (KMap [97]) false (APut (SStr [120])) [];
    mkOp (1, [2]) root_id (KMap [97]) false (APut (SStr [121; 122])) [];
    mkOp (2, [1]) root_id (KMap [110]) false (APut (SInt 7)) [];
    mkOp (2, [2]) root_id (KMap [110]) false (APut (SStr [113])) [];
    mkOp (3, [1]) root_id (KMap [108]) false (AMake OList) [];
    mkOp (4, [1]) (3, [1]) (KSeq head_id) true (APut (SStr [104; 105])) [];
    mkOp (5, [1]) root_id (KMap [116]) false (AMake OText) [];
    mkOp (6, [1]) (5, [1]) (KSeq head_id) true (APut (SStr [99])) [] ].

Example C40_nonvacuous :
  wf_tx (begin_tx ex_ops [9]) /\
  exists new, migrate EncCP ex_ops [9] = EOk new /\ length new = 10%nat /\
    let ops' := tx_all (begin_tx ex_ops [9]) ++ new in
    (* "a": the higher-id string "yz" wins *)
    last_str (reg_at ex_ops root_id (KMap [97])) = Some [121; 122] /\
    reg_at ops' root_id (KMap [97]) = [((9, [9]), VO OText)] /\ text_at ops' (9, [9]) = [121; 122] /\
    (* "n": the integer sibling is gone with the string *)
    reg_at ex_ops root_id (KMap [110]) = [((2, [1]), VS (SInt 7)); ((2, [2]), VS (SStr [113]))] /\
    reg_at ops' root_id (KMap [110]) = [((12, [9]), VO OText)] /\ text_at ops' (12, [9]) = [113] /\
    (* the list element *)
    listed ex_ops (3, [1]) OList (KSeq (4, [1])) [((4, [1]), VS (SStr [104; 105]))] /\
    text_at ops' (14, [9]) = [104; 105] /\
    (* the text object is untouched *)
    text_at ops' (5, [1]) = [99].
Proof.
  assert (Li : listed ex_ops (3, [1]) OList (KSeq (4, [1])) [((4, [1]), VS (SStr [104; 105]))]).
  { right. split; [reflexivity|]. exists (4, [1]). split; [reflexivity|]. vm_compute. left. reflexivity. }
  split; [vm_compute; reflexivity|]. eexists. split; [vm_compute; reflexivity|].
  split; [vm_compute; reflexivity|]. cbv zeta.
  split; [vm_compute; reflexivity|]. split; [vm_compute; reflexivity|]. split; [vm_compute; reflexivity|].
  split; [vm_compute; reflexivity|]. split; [vm_compute; reflexivity|]. split; [vm_compute; reflexivity|].
  split; [exact Li|]. split; vm_compute; reflexivity.
Qed.

Example C40_noop_nonvacuous :
  let ops := [ mkOp (1, [1]) root_id (KMap [97]) false (APut (SInt 3)) [];
               mkOp (2, [1]) root_id (KMap [116]) false (AMake OText) [];
               mkOp (3, [1]) (2, [1]) (KSeq head_id) true (APut (SStr [99])) [] ] in
  wf_tx (begin_tx ops [9]) /\ migrate EncCP ops [9] = EOk [].
Proof. split; vm_compute; reflexivity. Qed.
