(* C32 — Serde export is a faithful image of the current state.
   Model: Crdt/Render.v [render], a mirror of the traversal of autoserde.rs (after fix 5bd3832f2) over an
   observation [obs] (Crdt/Interp.v: per object, the registers of its keys / visible elements, each ascending by op
   id, the last entry being the winner that doc.get returns).  The result is the tree of serializer calls: maps with
   the length they ANNOUNCED (serialize_map(Some(doc.length(obj)))) next to the entries they emitted, sequences
   (serialize_seq(None)), text as one string, scalars by kind (counters and timestamps as i64, bytes as an announced
   sequence of u8).  Tied to the code by the family `recon`, stream serde: a length-enforcing test Serializer and
   serde_json on generated multi-replica documents, compared with the winners read through get_all / keys / length. *)
From AM Require Import Base.Prelude Base.Order Crdt.Types Crdt.Interp Crdt.Render Crdt.RenderProofs.
Local Open Scope N_scope.

(* winners only: a map node has one entry per key of the observation, valued by the winner of the key's register;
   a list node one item per visible element, in order; a text node is the text *)
Theorem C32_render_faithful : forall f ob id ty t,
  render (S f) ob id ty = Some t ->
  exists o, find_obj ob id = Some o /\
  match ty with
  | OText => t = JStr (text_of o)
  | OList => exists l items, oo_entries o = EL l /\ t = JSeq None items /\
                             Forall2 (fun r v => render_reg f ob r = Some v) l items
  | OMap | OTable => exists l es, oo_entries o = EM l /\ t = JMap (Some (length l)) es /\
                             Forall2 (fun kr e => fst e = fst kr /\ render_reg f ob (snd kr) = Some (snd e)) l es
  end.
Proof. exact render_faithful. Qed.

(* every container of the exported tree, at any depth, announced exactly the number of children it emitted *)
Theorem C32_announced_len_true : forall fuel ob id ty t, render fuel ob id ty = Some t -> ann_ok t = true.
Proof. exact announced_len_true. Qed.

(* non-vacuity: root {"a": conflict 1 / "x" (the string wins), "m": {"k": counter 5}, "l": [bytes, text "hi"]} *)
Definition ex_obs : obs :=
  [ mkO root_id OMap (EM [([97], [((1, [1]), VS (SInt 1)); ((1, [2]), VS (SStr [120]))]);
                          ([108], [((3, [1]), VO OList)]);
                          ([109], [((2, [1]), VO OMap)])]);
    mkO (2, [1]) OMap (EM [([107], [((4, [1]), VC 5)])]);
    mkO (3, [1]) OList (EL [[((5, [1]), VS (SBytes [1; 2]))]; [((6, [1]), VO OText)]]);
    mkO (6, [1]) OText (EL [[((7, [1]), VS (SStr [104]))]; [((8, [1]), VS (SStr [105]))]]) ].

Example C32_nonvacuous :
  export_root ex_obs =
  Some (JMap (Some 3%nat) [([97], JStr [120]);
                           ([108], JSeq None [JSeq (Some 2%nat) [JU64 1; JU64 2]; JStr [104; 105]]);
                           ([109], JMap (Some 1%nat) [([107], JI64 5)])]).
Proof. vm_compute. reflexivity. Qed.
