(* C09 — Incremental patches keep a materialized view equal to the document.
   Spec-level.  Model: Crdt/Patch.v (see C08) plus [local_action], a mirror of what
   TransactionInner::finalize_op (transaction/inner.rs) logs for an op that updates a map key (put,
   put_object, delete, increment, incl. inner.rs increment_replacement).  The receive-side generator
   (op_set2/change/batch.rs ValueState::map_process / list_flush, patches/patch_log.rs) is NOT mirrored:
   every batch of patches the implementation emits on every mutating path (local edits + diff_incremental,
   commit, rollback, apply_changes, merge, load_incremental, sync receive, load with a patch log,
   current_state, isolate / integrate) is validated by the proved applier against the document's state
   before and after (family `patch`, chk_chain).  Proofs in Crdt/PatchProofs.v.

   Partial: [C09_local_patch_sound_partial] covers map keys (not list indexes / text / inserts / splice)
   and increments of an UNCONFLICTED counter; for a conflicted register the emitted patch is wrong
   ([C09_local_increment_conflict_refuted], found on the implementation too: known finding). *)
From AM Require Import Base.Prelude Base.Order Crdt.Types Crdt.Interp Crdt.Local Crdt.LocalProofs Crdt.Patch Crdt.PatchProofs.
Local Open Scope N_scope.

(* composition: applying two batches one after the other is applying their concatenation — a view kept
   across many mutating calls is the fold of the batches *)
Theorem C09_apply_patches_app : forall e p1 p2 v,
  apply_patches e (p1 ++ p2) v =
  match apply_patches e p1 v with Some v' => apply_patches e p2 v' | None => None end.
Proof. exact apply_patches_app. Qed.

(* whatever a mutating path did to the document, the model-level patches from the view before to the view
   after are sound (and exist): the obligation on the implementation is only to emit SOME patch list the
   applier accepts with this result *)
Theorem C09_receive_patch_sound : forall e before after, wf_view before -> wf_view after ->
  apply_patches e (diff before after) before = Some after.
Proof. exact diff_apply. Qed.

(* local put / put_object / delete on a map key and increment of an unconflicted counter: the patch
   finalize_op emits turns what the view shows of the register before ([entry_shell r]: winner and
   conflict flag) into what it must show after the op ([after_reg]: the register C03_update_register_spec
   gives when the whole register is superseded); every other key keeps its entry *)
Theorem C09_local_patch_sound_partial : forall e oid m k id a r pa,
  match a with
  | APut _ | ADel => True
  | AMake t => t <> OTable
  | AInc _ => exists i c, r = [(i, VC c)]
  | _ => False
  end ->
  local_action (PMap k) id a r = Some pa ->
  shell_lookup k m = entry_shell r ->
  exists m',
    apply_action e (VMap oid m) pa = Some (VMap oid m') /\
    shell_lookup k m' = entry_shell (after_reg id a r) /\
    (forall k', k' <> k -> mlookup k' m' = mlookup k' m).
Proof. exact local_patch_sound_map. Qed.

(* the same statement FAILS for an increment of a conflicted register holding two counters: both are
   incremented and the register stays conflicted, the patch says "first counter + z, no conflict" *)
Theorem C09_local_increment_conflict_refuted :
  exists m k id z r pa,
    local_action (PMap k) id (AInc z) r = Some pa /\
    shell_lookup k m = entry_shell r /\
    forall e m', apply_action e (VMap root_id m) pa = Some (VMap root_id m') ->
                 shell_lookup k m' <> entry_shell (after_reg id (AInc z) r).
Proof. exact local_increment_conflict_refuted. Qed.

(* frame and determinism of the applier (shared with C08) *)
Theorem C09_apply_frame : forall e v p v' q,
  apply_patch e v p = Some v' -> diverges q (map snd (p_path p)) -> subtree v' q = subtree v q.
Proof. exact apply_patch_frame. Qed.

(* the view of the observation of C03's example state (a conflicted register holding a counter and an
   integer, a list with one element), a local put on the conflicted key, and the emitted patch *)
Definition ex_tx : tx :=
  begin_tx [ mkOp (1, [1]) root_id (KMap [97]) false (APut (SCounter 5)) [];
             mkOp (1, [2]) root_id (KMap [97]) false (APut (SInt 7)) [];
             mkOp (2, [1]) root_id (KMap [108]) false (AMake OList) [];
             mkOp (3, [1]) (2, [1]) (KSeq head_id) true (APut (SInt 1)) [] ] [1].

Example C09_local_patch_nonvacuous :
  let v := view_of_obs EncCP (observe (tx_all ex_tx)) in
  v = VMap root_id [([97], (VScalar (SInt 7), true)); ([108], (VList (2, [1]) [(VScalar (SInt 1), false)], false))] /\
  exists t' pa,
    step EncCP ex_tx (CPut root_id (PMap [97]) (SStr [120])) = EOk t' /\
    local_action (PMap [97]) (next_id ex_tx) (APut (SStr [120])) (reg_at (tx_all ex_tx) root_id (KMap [97])) = Some pa /\
    apply_patches EncCP [mkPatch root_id [] pa] v = Some (view_of_obs EncCP (observe (tx_all t'))).
Proof.
  split; [vm_compute; reflexivity|]. eexists. eexists. split; [vm_compute; reflexivity|].
  split; vm_compute; reflexivity.
Qed.

Example C09_local_patch_sound_nonvacuous :
  exists m', apply_action EncCP (VMap root_id [([97], (VScalar (SCounter 5), false))])
                          (Increment (PMap [97]) 3) = Some (VMap root_id m') /\
             shell_lookup [97] m' = entry_shell (after_reg (2, [1]) (AInc 3) [((1, [1]), VC 5)]).
Proof. eexists. split; vm_compute; reflexivity. Qed.

Example C09_composition_nonvacuous :
  apply_patches EncCP ([mkPatch root_id [] (PutMap [97] (PVO OList (1, [1])) false)]
                       ++ [mkPatch (1, [1]) [(root_id, PMap [97])] (Insert 0 [(PVS (SInt 1), false)])])
                (VMap root_id [])
  = Some (VMap root_id [([97], (VList (1, [1]) [(VScalar (SInt 1), false)], false))]).
Proof. vm_compute. reflexivity. Qed.
