(* C20 — Two-peer sync converges and goes quiet.
   Proofs in Sync/ProtoProofs.v and Sync/SyncInv.v. *)
From AM Require Import Base.Prelude Base.Order Gen.Consts Crdt.Types Crdt.Doc Crdt.QueueProofs Sync.Proto Sync.ProtoProofs.
Local Open Scope N_scope.

(* safety: a receive never loses a change and only adds changes the message carries *)
Theorem C20_sync_only_adds_peer_changes :
  forall (B : Type) (d : doc) (s : sync_state B) (m : message B) d' s',
    receive_sync_message d s m = Ok (d', s') ->
    incl (applied d ++ queue d) (applied d' ++ queue d') /\
    forall c, In c (applied d' ++ queue d') -> In c (applied d ++ queue d) \/ In c (msg_changes m).
Proof. exact sync_only_adds_peer_changes. Qed.

(* applied changes only grow and stay closed under dependencies *)
Theorem C20_sync_receive_monotone :
  forall (B : Type) (d : doc) (s : sync_state B) (m : message B) d' s',
    receive_sync_message d s m = Ok (d', s') ->
    incl (applied d) (applied d') /\ (dep_closed (applied d) -> dep_closed (applied d')).
Proof. exact sync_receive_monotone. Qed.

(* whatever a generated message carries is a change the sender holds (applied, or held as an orphan when the
   whole document is sent) *)
Theorem C20_generated_changes_from_sender :
  forall (B : Type) (b_make : list N -> B) (b_query : B -> N -> bool) (d : doc) (s : sync_state B) s' m,
    generate_sync_message b_make b_query d s = (s', Some m) -> incl (msg_changes m) (applied d ++ queue d).
Proof. exact generated_changes_from_sender. Qed.

(* Quiescence soundness, over ALL states reachable from fresh states.
   Two peers with arbitrary dependency-closed documents inside a hash-addressed acyclic universe U, both
   sync states State::new(), empty channels; steps: either peer generates (the message, if any, is appended
   to its outgoing in-order channel), either peer receives the oldest message addressed to it, either peer
   edits locally (its applied changes grow, staying closed and inside U).  Scope (see Sync/SyncInv.v): both
   states stay read-write, and no generate step takes the reset path (the peer's last_sync names a change we
   lack), which a session between two fresh states never does on the implementation (counted by the harness).
   Then: whenever both peers return None from generate_sync_message and nothing is in flight, they hold the
   same changes and the same heads — for every Bloom filter behaviour (arbitrary false positives).
   NOT proved: that such a state is reached within a bounded number of rounds (explored by the harness). *)
From AM Require Import Sync.SyncInv.

Theorem C20_invariant_of_reachable_states :
  forall (B : Type) (b_make : list N -> B) (b_query : B -> N -> bool) (U : list change) (w : sys B),
    reachable B b_make b_query U w -> Inv B U w.
Proof. exact Inv_reachable. Qed.

Theorem C20_quiescent_implies_equal_heads :
  forall (B : Type) (b_make : list N -> B) (b_query : B -> N -> bool) (U : list change) (rk : change -> nat),
    hash_inj U ->
    (forall c c', In c U -> In c' U -> In (ch_hash c) (ch_deps c') -> (rk c < rk c')%nat) ->
    forall (w : sys B) (sa sb : sync_state B),
      reachable B b_make b_query U w -> cAB B w = [] -> cBA B w = [] ->
      generate_sync_message b_make b_query (dA B w) (sA B w) = (sa, None) ->
      generate_sync_message b_make b_query (dB B w) (sB B w) = (sb, None) ->
      same_changes (applied (dA B w)) (applied (dB B w)) /\
      forall h, In h (heads_of (applied (dA B w))) <-> In h (heads_of (applied (dB B w))).
Proof. exact quiescent_implies_equal_heads. Qed.

(* the `.ok()?` early exit of generate_sync_message can never be taken: a builder always exists *)
Theorem C20_build_total :
  forall (B : Type) (b_query : B -> N -> bool) (d : doc) (s : sync_state B), exists b, build b_query d s = Some b.
Proof. exact build_total. Qed.

(* non-vacuity: A holds c1 <- c3, B holds c2; eight steps reach a quiescent state with all three *)
Definition ex_mk (l : list N) : list N := l.
Definition ex_qr (l : list N) (h : N) : bool := memN h l.
Definition ex_c1 : change := mkChange 11 [1] 1 1 [] [].
Definition ex_c2 : change := mkChange 22 [2] 1 1 [] [].
Definition ex_c3 : change := mkChange 33 [1] 2 2 [11] [].
Definition ex_U : list change := [ex_c1; ex_c2; ex_c3].
Definition ex_w0 : sys (list N) :=
  mkSys _ (mkDoc [ex_c1; ex_c3] []) (mkDoc [ex_c2] []) fresh_state fresh_state [] [] None None.
Definition ex_script : list (bool * cmd) :=
  [(true, CGen); (false, CRecv); (false, CGen); (true, CRecv); (true, CGen); (false, CRecv); (false, CGen); (true, CRecv)].

Example C20_quiescent_nonvacuous :
  hash_inj ex_U /\
  (forall c c', In c ex_U -> In c' ex_U -> In (ch_hash c) (ch_deps c') -> (N.to_nat (ch_seq c) < N.to_nat (ch_seq c'))%nat) /\
  exists w, reachable _ ex_mk ex_qr ex_U w /\ cAB _ w = [] /\ cBA _ w = [] /\
    snd (generate_sync_message ex_mk ex_qr (dA _ w) (sA _ w)) = None /\
    snd (generate_sync_message ex_mk ex_qr (dB _ w) (sB _ w)) = None /\
    hashes (applied (dA _ w)) = [11; 33; 22] /\ hashes (applied (dB _ w)) = [22; 11; 33].
Proof.
  split; [|split].
  - apply distinct_hash_inj. reflexivity.
  - intros c c' Hc Hc' E. cbn in Hc, Hc'.
    destruct Hc as [<-|[<-|[<-|[]]]]; destruct Hc' as [<-|[<-|[<-|[]]]]; cbn in E; cbn; try lia;
      destruct E as [E|E]; try discriminate; try destruct E.
  - destruct (exec _ ex_mk ex_qr ex_w0 ex_script) as [w|] eqn:E; [|vm_compute in E; discriminate].
    exists w. split.
    + apply (exec_sound _ ex_mk ex_qr ex_U ex_script ex_w0 w); [|exact E]. apply R0.
      unfold initial, good_doc, ex_w0. cbn [dA dB sA sB cAB cBA gA gB applied queue].
      repeat split; try reflexivity.
      * intros c Hc h Hh. cbn in Hc. destruct Hc as [<-|[<-|[]]]; cbn in Hh; [destruct Hh|]. destruct Hh as [<-|[]]. reflexivity.
      * intros c Hc. cbn in Hc |- *. tauto.
      * intros c Hc h Hh. cbn in Hc. destruct Hc as [<-|[]]. destruct Hh.
      * intros c Hc. cbn in Hc |- *. tauto.
    + vm_compute in E. inversion E; subst. vm_compute. auto 10.
Qed.

Example C20_sync_only_adds_nonvacuous :
  exists d' s', receive_sync_message (mkDoc [ex_c2] []) (@fresh_state (list N))
                  (mkMsg [33] [] [] (Some [ex_c3; ex_c1]) (Some 4)) = Ok (d', s') /\
    hashes (applied d') = [22; 11; 33] /\ shared_heads s' = [33].
Proof. do 2 eexists. split; [vm_compute; reflexivity|]. split; reflexivity. Qed.
