(* C37 — Public API calls never panic.                                                PARTIAL.

   Statements only.  What is proved is the ARGUMENT-VALIDATION layer that exists in the models:
     Codec/ExId      exid_to_opid / op_cursor_to_opid: an object id or cursor whose counter does not
                     fit the internal u32 (OpId::new narrowing) is an error, not a panic (as of /repo
                     323bff928), for every actor table of at most 2^32 actors, every hint;
     Crdt/Cursor     get_cursor_position: unknown / foreign cursors are InvalidCursor; MoveCursor::After
                     resolution returns a value or an error on EVERY op list; MoveCursor::Before without
                     the reference walk likewise (the walk is fuelled by the number of ops; that the fuel
                     suffices is C26's well-formedness argument, not repeated here);
     Crdt/Local      the editing calls put / put_object / insert / insert_object / delete / increment /
                     splice / splice_text: unknown object, wrong key kind for the object type, index out
                     of range, increment of a non-counter each return the corresponding error, and a
                     failed call leaves the transaction unchanged.
   NOT modelled: the op-set seek paths behind the calls (op_set2, hexane cursors: e.g. the index
   arithmetic in hexane/src/prefix.rs), historical reads at arbitrary head sets, marks / blocks,
   diff, isolate, transaction_at, hydrate::Value::apply_patches.  Those are explored by the harness
   family `robust` (valid, stale, foreign and out-of-range arguments into every public call). *)
From AM Require Import Base.Prelude Base.Order Crdt.Types Crdt.Interp Crdt.Cursor Crdt.CursorProofs
  Crdt.Local Crdt.LocalProofs Codec.Bloom Codec.ExId Codec.ExIdProofs Crdt.RobustProofs.
From AM Require Exec.RobustExec.
Local Open Scope N_scope.

Theorem C37_exid_counter_above_u32_is_error : forall (t : table) (c : N) (a : bytes) (h : N),
  u32_max < c -> exid_to_opid t (EId c a h) = Err.
Proof. exact exid_narrowing_err. Qed.
Theorem C37_cursor_counter_above_u32_is_error : forall (t : table) (c : N) (a : bytes),
  u32_max < c -> cursor_to_opid t c a = Err.
Proof. exact cursor_narrowing_err. Qed.
Theorem C37_exid_to_opid_no_panic : forall (t : table) (e : exid), lenN t <= pow32 -> exid_to_opid t e <> Panic.
Proof. exact exid_to_opid_no_panic. Qed.
Theorem C37_cursor_to_opid_no_panic : forall (t : table) (c : N) (a : bytes),
  lenN t <= pow32 -> cursor_to_opid t c a <> Panic.
Proof. exact cursor_to_opid_no_panic. Qed.
Theorem C37_unknown_actor_is_error : forall (t : table) (c : N) (a : bytes) (h : N),
  ~ In a t -> exid_to_opid t (EId c a h) = Err.
Proof. exact resolve_unknown_actor. Qed.
Example C37_narrowing_nonvacuous :
  exid_to_opid [[1]] (EId 4294967296 [1] 0) = Err /\ exid_to_opid [[1]] (EId 4294967295 [1] 0) = Ok (4294967295, 0).
Proof. split; reflexivity. Qed.

Theorem C37_unknown_cursor_is_error : forall (width : regobs -> N) (oops : list op) (mode : move_mode) (c : opid),
  find_op oops c = None -> resolve width oops mode c = Err.
Proof. exact resolve_unknown. Qed.
Theorem C37_cursor_after_no_panic : forall (width : regobs -> N) (oops : list op) (c : opid),
  resolve width oops MoveAfter c <> Panic.
Proof. exact resolve_after_no_panic. Qed.
Theorem C37_cursor_before_visible_no_panic_partial : forall (width : regobs -> N) (oops : list op) (c : opid) (o : op),
  find_op oops c = Some o -> elem_vis oops (elem_of o) = true -> resolve width oops MoveBefore c <> Panic.
Proof. exact resolve_before_direct_no_panic. Qed.

Theorem C37_failed_call_changes_nothing : forall e t c t' x,
  apply_call e t c = EOk (t', Some x) -> t' = t.
Proof. exact apply_call_error_unchanged. Qed.
Theorem C37_unknown_object_is_error : forall e t c,
  lookup_type (tx_all t)
    (match c with
     | CPut o _ _ | CPutObj o _ _ | CInsert o _ _ | CInsertObj o _ _ | CDelete o _ | CInc o _ _
     | CSplice o _ _ _ | CSpliceText o _ _ _ => o end) = None ->
  step e t c = EErr EInvalidObj.
Proof. exact unknown_object_error. Qed.
Theorem C37_wrong_key_kind_is_error : forall e t obj,
  (forall k v, lookup_type (tx_all t) obj = Some OList -> step e t (CPut obj (PMap k) v) = EErr EInvalidOp) /\
  (forall i v, lookup_type (tx_all t) obj = Some OMap -> step e t (CPut obj (PSeq i) v) = EErr EInvalidOp) /\
  (forall i v, lookup_type (tx_all t) obj = Some OMap -> step e t (CInsert obj i v) = EErr EInvalidOp) /\
  (forall i nt, lookup_type (tx_all t) obj = Some OText -> step e t (CPutObj obj (PSeq i) nt) = EErr EInvalidOp) /\
  (forall i z, lookup_type (tx_all t) obj = Some OMap -> step e t (CInc obj (PSeq i) z) = EErr EInvalidOp) /\
  (forall i, lookup_type (tx_all t) obj = Some OMap -> step e t (CDelete obj (PSeq i)) = EErr EInvalidOp) /\
  (forall k, lookup_type (tx_all t) obj = Some OList -> step e t (CDelete obj (PMap k)) = EErr EInvalidOp) /\
  (forall k, lookup_type (tx_all t) obj = Some OText -> step e t (CDelete obj (PMap k)) = EErr EInvalidOp) /\
  (forall i d s, lookup_type (tx_all t) obj = Some OList -> step e t (CSpliceText obj i d s) = EErr EInvalidOp).
Proof. exact wrong_key_kind_error. Qed.
Theorem C37_index_out_of_range_is_error : forall e t obj i,
  lookup_type (tx_all t) obj = Some OList ->
  N.of_nat (length (seq_elems (tx_all t) obj)) <= i ->
  (forall v, step e t (CPut obj (PSeq i) v) = EErr EInvalidIndex) /\
  (forall nt, step e t (CPutObj obj (PSeq i) nt) = EErr EInvalidIndex) /\
  (forall z, step e t (CInc obj (PSeq i) z) = EErr EInvalidIndex) /\
  step e t (CDelete obj (PSeq i)) = EErr EInvalidIndex /\
  (forall v, step e t (CInsert obj (i + 1) v) = EErr EInvalidIndex) /\
  (forall nt, step e t (CInsertObj obj (i + 1) nt) = EErr EInvalidIndex).
Proof. exact index_out_of_range_error. Qed.
Theorem C37_increment_non_counter_is_error : forall e t obj k z,
  lookup_type (tx_all t) obj = Some OMap ->
  existsb is_vc (reg_at (tx_all t) obj (KMap k)) = false ->
  step e t (CInc obj (PMap k) z) = EErr EMissingCounter.
Proof. exact increment_non_counter_error. Qed.
