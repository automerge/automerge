(* C15 — Untrusted bytes and strings never crash the library.
   FULL for the small decoders and containers listed below, PARTIAL for the property as a whole.

   Statements, each a theorem of the files below or a few lines over them.  Each theorem says: for ALL byte strings / strings the modelled decoder returns
   a value or an error, never [Panic] — the models (written line by line from the Rust, partial
   operations such as indexing, unwrap, `%`, narrowing and debug-build overflow as [Panic]) are
     Base/Leb128, Base/Sleb128           storage/parse/leb128.rs (unsigned / signed readers)
     Hexane/Hleb                         hexane's varint readers (leb128 crate): option-valued, total
     Store/Chunk                         chunk header, chunk parser, the chunk loops of load /
                                         load_incremental (hash, body parsers, inflate, apply = parameters)
     Store/ChangeChunk                   the change chunk body (storage/change.rs parse_following_header)
     Codec/Bloom                         sync/bloom.rs parse and contains_hash
     Codec/ExId, CursorCodec, Hex        ObjId / Cursor from bytes and text, ActorId / ChangeHash hex, import_obj
     Codec/SyncCodec                     sync Message::decode and State::decode
     Hexane/Rle, BoolCol, Delta          hexane Column::<T>::load / Column::<bool>::load / DeltaColumn::load
                                         (as of /repo a623e02f7 and 1187ab90a)
   NOT modelled, hence not covered by any theorem here: the document / change / bundle OP and CHANGE
   column readers above hexane (op_set2, change_graph.rs, change/collector.rs, storage/bundle, the
   streaming `hexane::decoder`s they use, columnar/encoding), Automerge::rescue, and what
   receive_sync_message does with the chunks of a decoded message.  Those are explored by the harness
   family `robust` (structure-aware mutation with the chunk checksum recomputed) and they DO panic on
   the unchanged tree: see known_findings.txt, property=C15. *)
From AM Require Import Base.Prelude Base.Leb128 Base.Sleb128 Base.Sleb128Proofs Gen.Consts
  Store.Chunk Store.ChunkProofs Store.ChangeChunk Store.ChangeChunkProofs
  Codec.Bloom Codec.BloomProofs Codec.Hex Codec.HexProofs Codec.ExId Codec.ExIdProofs
  Codec.CursorCodec Codec.CursorProofs Codec.SyncCodec Codec.SyncProofs
  Hexane.Hleb Hexane.Rle Hexane.RleProofs Hexane.BoolCol Hexane.BoolColProofs Hexane.Delta Hexane.DeltaProofs.
From AM Require Exec.RobustExec.
Local Open Scope N_scope.

Theorem C15_uleb_no_panic : forall l : bytes, uleb_dec l <> Panic.
Proof. exact uleb_dec_no_panic. Qed.
Theorem C15_uleb_u32_no_panic : forall l : bytes, uleb_dec_u32 l <> Panic.
Proof. exact uleb_dec_u32_no_panic. Qed.
Theorem C15_sleb_no_panic : forall l : bytes, sleb_dec l <> Panic.
Proof. exact sleb_dec_no_panic. Qed.

(* chunk framing and the chunk loops (any hash, body parser, inflate; apply = the CRDT layer) *)
Theorem C15_chunk_header_no_panic : forall bs : bytes, parse_header bs <> Panic.
Proof. exact parse_header_no_panic. Qed.
Theorem C15_chunk_no_panic :
  forall (Hsh : bytes -> bytes) (C : Type) (body : N -> bytes -> option (list C))
    (inflate : bytes -> option bytes) (bs : bytes),
  parse_chunk Hsh C body inflate bs <> Panic.
Proof. exact parse_chunk_no_panic. Qed.
Theorem C15_load_framing_no_panic :
  forall (Hsh : bytes -> bytes) (C : Type) (body : N -> bytes -> option (list C))
    (inflate : bytes -> option bytes) (D : Type) (empty : D) (apply : D -> list C -> res D)
    (queue_empty : D -> bool) (m : mode) (bs : bytes),
  (forall (d : D) (cs : list C), apply d cs <> Panic) ->
  load Hsh C body inflate D empty apply queue_empty m bs <> Panic.
Proof. exact load_no_panic. Qed.

Theorem C15_change_body_no_panic : forall b : bytes, parse_body b <> Panic.
Proof. exact parse_body_no_panic. Qed.

(* Bloom filter: decoding, and every query on every decodable filter *)
Theorem C15_bloom_parse_no_panic : forall bs : bytes, Bloom.parse bs <> Panic.
Proof. exact bloom_parse_no_panic. Qed.
Theorem C15_bloom_query_total : forall (bs : bytes) (f : filter) (rest h : bytes),
  Bloom.parse bs = Ok (f, rest) -> 16 * lenN bs <= pow32 -> exists b, contains f h = Ok b.
Proof. exact bloom_query_total. Qed.
Example C15_bloom_d3_nonvacuous :
  (* the filter that divided by zero before 2a7510a94: entries 1, zero bits per entry, 7 probes, no bits *)
  exists f, Bloom.parse [1; 0; 7] = Ok (f, []) /\ contains f (repeat 0 32) = Ok false.
Proof. eexists. split; reflexivity. Qed.

Theorem C15_exid_of_bytes_no_panic : forall l : bytes, exid_of_bytes l <> Panic.
Proof. exact exid_of_bytes_no_panic. Qed.
Theorem C15_cursor_of_bytes_no_panic : forall l : bytes, cursor_of_bytes l <> Panic.
Proof. exact cursor_of_bytes_no_panic. Qed.
Theorem C15_cursor_of_str_no_panic : forall s : str, cursor_of_str s <> Panic.
Proof. exact cursor_of_str_no_panic. Qed.
Theorem C15_actor_of_str_no_panic : forall s : str, actor_of_str s <> Panic.
Proof. exact actor_of_str_no_panic. Qed.
Theorem C15_hash_of_str_no_panic : forall s : str, hash_of_str s <> Panic.
Proof. exact hash_of_str_no_panic. Qed.
Theorem C15_import_obj_no_panic : forall (t : table) (s : str), import_obj t s <> Panic.
Proof. exact import_obj_no_panic. Qed.
Example C15_d5_nonvacuous :
  (* the strings of defect D5: "", a multi-byte first character, a non-hex actor *)
  cursor_of_str [] = Err /\ cursor_of_str [233; 49; 64; 97; 97] = Err /\ import_obj [] [49; 64; 122; 122] = Err.
Proof. repeat split; reflexivity. Qed.

Theorem C15_message_decode_no_panic : forall i : bytes, message_decode i <> Panic.
Proof. exact message_decode_no_panic. Qed.
Theorem C15_state_decode_no_panic : forall i : bytes, state_decode i <> Panic.
Proof. exact state_decode_no_panic. Qed.

(* hexane column loaders (the validating `load`, not the streaming decoders) *)
Theorem C15_hexane_rle_load_no_panic :
  forall (V : Type) (veqb : V -> V -> bool) (dec : bytes -> option (V * bytes)) (nullable : bool) (b : bytes),
  rle_load V veqb dec nullable b <> Panic.
Proof. intros V veqb dec nullable b. exact (rle_load_no_panic V veqb dec nullable b). Qed.
Theorem C15_hexane_columns_no_panic : forall (nullable : bool) (b : bytes),
  u64_load nullable b <> Panic /\ i64_load nullable b <> Panic /\ str_load nullable b <> Panic /\ blob_load nullable b <> Panic.
Proof.
  intros nullable b. repeat split.
  - exact (rle_load_no_panic N N.eqb u64_dec nullable b).
  - exact (rle_load_no_panic Z Z.eqb i64_dec nullable b).
  - exact (rle_load_no_panic bytes bytes_eqb str_dec nullable b).
  - exact (rle_load_no_panic bytes bytes_eqb blob_dec nullable b).
Qed.
Theorem C15_hexane_bool_load_no_panic : forall b : bytes, bool_load b <> Panic.
Proof. exact bool_load_no_panic. Qed.
Theorem C15_hexane_delta_load_no_panic : forall (nullable : bool) (lo hi : Z) (b : bytes),
  delta_load nullable lo hi b <> Panic.
Proof. exact delta_load_no_panic. Qed.
Example C15_hexane_overflow_inputs_nonvacuous :
  (* the inputs that panicked before a623e02f7: literal header i64::MIN; 2^64 declared items *)
  u64_load false [128;128;128;128;128;128;128;128;128;127] = Err /\
  u64_load true [0;255;255;255;255;255;255;255;255;255;1;2;5] = Err.
Proof. split; vm_compute; reflexivity. Qed.
