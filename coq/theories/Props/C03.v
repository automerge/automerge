(* C03 — Local edits have their documented sequential effect.
   Model: Crdt/Local.v (a mirror of transaction/inner.rs: next_id, local_map_op, local_list_op,
   do_insert, inner_splice, resolve_action, the list / text index seeks).  The statements read the
   document through [observe] (Crdt/Interp.v) with the selectors
     obs_obj ob id   — one object of an observation,
     obs_reg ob id k — the register (ascending id, last wins) of key k of a map object,
     obs_seq ob id   — the registers of the visible elements of a list / text, in document order,
   for ANY transaction state satisfying the decidable predicate [wf_tx] (ids strictly ascending, every
   counter mentioned below the next op counter) which the family `edit` checks on every history.
   "Visible inside the open transaction and after commit": the observation is a function of
   document ops ++ pending ops, which is what a commit appends as one change.

   Proved in full: put / delete / increment / put_object on a map key; insert / insert_object into a
   list or text (any encoding); put / put_object / delete / increment at a list or text index, at the
   register level and (C03_seq_update_spec, C03_list_*_spec) at the position level; the error cases.
   Partial (explored by the family, not proved): splice / splice_text (several ops per call),
   preservation of wf_tx by the multi-op calls, absence of model panics (del_loop fuel).
   Marks, blocks and the GraphemeCluster encoding are outside the model. *)
From AM Require Import Base.Prelude Base.Order Crdt.Types Crdt.Interp Crdt.Local Crdt.LocalProofs Crdt.SeqProofs.
Local Open Scope N_scope.

(* put on a map key: the register is exactly the new value (or, when the winning value already
   equals it, that winner alone); every other key and every other object is unchanged *)
Theorem C03_put_spec : forall e t obj k v t',
  wf_tx t -> lookup_type (tx_all t) obj = Some OMap ->
  step e t (CPut obj (PMap k) v) = EOk t' ->
  let ob := observe (tx_all t) in
  let ob' := observe (tx_all t') in
  obs_reg ob' obj k =
    match winner (obs_reg ob obj k) with
    | Some (i, w) => if same_value w v then [(i, w)] else [(next_id t, scalar_vobs v)]
    | None => [(next_id t, scalar_vobs v)]
    end
  /\ (forall k', k' <> k -> obs_reg ob' obj k' = obs_reg ob obj k')
  /\ (forall obj', obj' <> obj -> obs_obj ob' obj' = obs_obj ob obj').
Proof.
  intros e t obj k v t' W L H. destruct (with_obj_drop_id L H eq_refl) as [oid Hop].
  destruct (map_update_obs t obj OMap k (APut v) t' oid W L eq_refl Hop) as (E & R & Fk & Fo).
  split; [|split; [exact Fk|]].
  - rewrite R. apply resolved_put. rewrite E. apply wf_reg_nodup, W.
  - intros obj' NE. apply Fo; [exact NE|]. right. discriminate.
Qed.

Theorem C03_delete_spec : forall e t obj k t',
  wf_tx t -> lookup_type (tx_all t) obj = Some OMap ->
  step e t (CDelete obj (PMap k)) = EOk t' ->
  let ob := observe (tx_all t) in
  let ob' := observe (tx_all t') in
  obs_reg ob' obj k = []
  /\ (forall k', k' <> k -> obs_reg ob' obj k' = obs_reg ob obj k')
  /\ (forall obj', obj' <> obj -> obs_obj ob' obj' = obs_obj ob obj').
Proof.
  intros e t obj k t' W L H. destruct (with_obj_drop_id L H eq_refl) as [oid Hop].
  destruct (map_update_obs t obj OMap k ADel t' oid W L eq_refl Hop) as (_ & R & Fk & Fo).
  split; [|split; [exact Fk|]].
  - rewrite R. apply (resolved_no_put _ _ ADel). discriminate.
  - intros obj' NE. apply Fo; [exact NE|]. right. discriminate.
Qed.

(* increment: there is a counter; every counter of the register is incremented, every other
   (conflicting) value is superseded *)
Theorem C03_increment_spec : forall e t obj k z t',
  wf_tx t -> lookup_type (tx_all t) obj = Some OMap ->
  step e t (CInc obj (PMap k) z) = EOk t' ->
  let ob := observe (tx_all t) in
  let ob' := observe (tx_all t') in
  existsb is_vc (obs_reg ob obj k) = true
  /\ obs_reg ob' obj k = inc_reg z (obs_reg ob obj k)
  /\ (forall k', k' <> k -> obs_reg ob' obj k' = obs_reg ob obj k')
  /\ (forall obj', obj' <> obj -> obs_obj ob' obj' = obs_obj ob obj').
Proof.
  intros e t obj k z t' W L H. destruct (with_obj_drop_id L H eq_refl) as [oid Hop].
  destruct (map_update_obs t obj OMap k (AInc z) t' oid W L eq_refl Hop) as (E & R & Fk & Fo).
  split; [|split; [|split; [exact Fk|]]].
  - rewrite E. exact (increment_needs_counter _ _ _ _ _ _ _ Hop).
  - rewrite R. apply (resolved_no_put _ _ (AInc z)). discriminate.
  - intros obj' NE. apply Fo; [exact NE|]. right. discriminate.
Qed.

Theorem C03_put_object_spec : forall e t obj k nt t',
  wf_tx t -> lookup_type (tx_all t) obj = Some OMap ->
  step e t (CPutObj obj (PMap k) nt) = EOk t' ->
  let ob := observe (tx_all t) in
  let ob' := observe (tx_all t') in
  obs_reg ob' obj k = [(next_id t, VO nt)]
  /\ obs_obj ob' (next_id t) = Some (observe_obj [] (next_id t) nt)
  /\ (forall k', k' <> k -> obs_reg ob' obj k' = obs_reg ob obj k')
  /\ (forall obj', obj' <> obj -> obj' <> next_id t -> obs_obj ob' obj' = obs_obj ob obj').
Proof. exact put_object_map_spec. Qed.

(* insert: the visible sequence is firstn j old ++ [new] ++ skipn j old, where j is the element position
   the index resolves to (for a list j = i; for a text the index is measured in the encoding and
   rounds up to the end of the character it falls into); every other object is unchanged *)
Theorem C03_insert_spec : forall e t obj ty i v t',
  wf_tx t -> lookup_type (tx_all t) obj = Some ty -> is_seq_type ty = true ->
  step e t (CInsert obj i v) = EOk t' ->
  let ob := observe (tx_all t) in
  let ob' := observe (tx_all t') in
  exists ref idx j,
    query_insert e ty (tx_all t) obj i = Some (ref, idx, j) /\
    (ty = OList -> j = N.to_nat i) /\
    obs_seq ob' obj = firstn j (obs_seq ob obj) ++ [[(next_id t, scalar_vobs v)]] ++ skipn j (obs_seq ob obj) /\
    (forall obj', obj' <> obj -> obs_obj ob' obj' = obs_obj ob obj').
Proof. exact insert_spec. Qed.

Theorem C03_insert_object_spec : forall e t obj ty i nt t',
  wf_tx t -> lookup_type (tx_all t) obj = Some ty -> is_seq_type ty = true ->
  step e t (CInsertObj obj i nt) = EOk t' ->
  let ob := observe (tx_all t) in
  let ob' := observe (tx_all t') in
  exists ref idx j,
    query_insert e ty (tx_all t) obj i = Some (ref, idx, j) /\
    (ty = OList -> j = N.to_nat i) /\
    obs_seq ob' obj = firstn j (obs_seq ob obj) ++ [[(next_id t, VO nt)]] ++ skipn j (obs_seq ob obj) /\
    (forall obj', obj' <> obj -> obj' <> next_id t -> obs_obj ob' obj' = obs_obj ob obj').
Proof.
  intros e t obj ty i nt t' W L Sq H. unfold step, with_obj in H. rewrite L, Sq in H.
  destruct (do_insert_obs e t obj ty i (AMake nt) (VO nt) t' W L Sq) as (ref & idx & j & Q & Hj & Hs & Fo);
    [intros n E; unfold own_reg; rewrite E; reflexivity|exact H|].
  exists ref, idx, j. split; [exact Q|]. split; [exact Hj|]. split; [exact Hs|].
  intros obj' NE NN. apply Fo; [exact NE|left; exact NN].
Qed.

(* put / put_object / delete / increment on ANY register (a map key, or the element a list / text
   index resolves to — C03_list_index_resolution): the register becomes what the resolved action says;
   every other register of every object and the element order of every object are unchanged *)
Theorem C03_update_register_spec : forall t obj K a t' oid,
  wf_tx t ->
  update_op t obj K (reg_at (tx_all t) obj K) a = EOk (t', oid) ->
  let r := reg_at (tx_all t) obj K in
  frame_upd (tx_all t) (tx_all t') obj K /\
  reg_at (tx_all t') obj K =
    match resolve_action r a with
    | None => r
    | Some (a', r') =>
      let kept := flat_map (fun iw => if memb opid_eqb (fst iw) (map fst r') then [] else [iw]) r in
      match a' with
      | APut v => kept ++ [(next_id t, scalar_vobs v)]
      | AMake ty => kept ++ [(next_id t, VO ty)]
      | AInc z => inc_reg z r
      | _ => kept
      end
    end.
Proof. exact update_op_spec. Qed.

Theorem C03_list_index_resolution : forall e t obj ty i a t' oid,
  wf_tx t -> local_list_op e t obj ty i a = EOk (t', oid) ->
  exists el r s wd p,
    seek (elem_w e ty) (seq_elems (tx_all t) obj) i 0 0 = Some (el, r, s, wd, p) /\
    nth_error (seq_elems (tx_all t) obj) p = Some (el, r) /\
    r = reg_at (tx_all t) obj (KSeq el) /\
    update_op t obj (KSeq el) (reg_at (tx_all t) obj (KSeq el)) a = EOk (t', oid).
Proof. intros e t obj ty i a t' oid _. apply list_update_spec. Qed.


(* put / put_object / delete / increment at an index of a list or text, position level: the visible
   sequence changes at exactly the position p the index resolves to (the element keeps its place with its
   new register, or disappears when the register becomes empty); other objects are unchanged *)
Theorem C03_seq_update_spec : forall e t obj ty i a t' oid,
  wf_tx t -> lookup_type (tx_all t) obj = Some ty -> is_seq_type ty = true ->
  local_list_op e t obj ty i a = EOk (t', oid) ->
  let ob := observe (tx_all t) in
  let ob' := observe (tx_all t') in
  exists el r s wd p,
    seek (elem_w e ty) (seq_elems (tx_all t) obj) i 0 0 = Some (el, r, s, wd, p) /\
    nth_error (obs_seq ob obj) p = Some r /\
    r = reg_at (tx_all t) obj (KSeq el) /\
    update_op t obj (KSeq el) r a = EOk (t', oid) /\
    obs_seq ob' obj =
      firstn p (obs_seq ob obj)
      ++ (match reg_at (tx_all t') obj (KSeq el) with [] => [] | r' => [r'] end)
      ++ skipn (S p) (obs_seq ob obj) /\
    (forall obj', obj' <> obj -> obj' <> next_id t -> obs_obj ob' obj' = obs_obj ob obj').
Proof.
  intros e t obj ty i a t' oid W L Sq H. cbv zeta.
  destruct (seq_update_obs e t obj ty i a t' oid W L Sq H) as (el & r & s & wd & p & Sk & _ & Hn & Er & Hu & _ & Hs & Fo).
  exists el, r, s, wd, p. repeat split; try assumption. intros obj' NE NN. apply Fo; auto.
Qed.

Theorem C03_list_put_spec : forall e t obj i v t',
  wf_tx t -> lookup_type (tx_all t) obj = Some OList ->
  step e t (CPut obj (PSeq i) v) = EOk t' ->
  let ob := observe (tx_all t) in
  let ob' := observe (tx_all t') in
  exists r, nth_error (obs_seq ob obj) (N.to_nat i) = Some r /\
    obs_seq ob' obj = firstn (N.to_nat i) (obs_seq ob obj)
      ++ [match winner r with
          | Some (j, w) => if same_value w v then [(j, w)] else [(next_id t, scalar_vobs v)]
          | None => [(next_id t, scalar_vobs v)]
          end]
      ++ skipn (S (N.to_nat i)) (obs_seq ob obj).
Proof.
  intros e t obj i v t' W L H. destruct (with_obj_drop_id L H eq_refl) as [oid Hop].
  destruct (seq_update_obs e t obj OList i (APut v) t' oid W L eq_refl Hop)
    as (el & r & s & wd & p & _ & P & Hn & Er & _ & R & Hs & _).
  rewrite (P eq_refl) in *. exists r. split; [exact Hn|].
  rewrite Hs, R, resolved_put by (rewrite Er; apply wf_reg_nodup, W).
  destruct (winner r) as [[j w]|]; [destruct (same_value w v)|]; reflexivity.
Qed.

Theorem C03_list_delete_spec : forall e t obj i t',
  wf_tx t -> lookup_type (tx_all t) obj = Some OList ->
  step e t (CDelete obj (PSeq i)) = EOk t' ->
  let ob := observe (tx_all t) in
  let ob' := observe (tx_all t') in
  obs_seq ob' obj = firstn (N.to_nat i) (obs_seq ob obj) ++ skipn (S (N.to_nat i)) (obs_seq ob obj)
  /\ (N.to_nat i < length (obs_seq ob obj))%nat.
Proof.
  intros e t obj i t' W L H. destruct (with_obj_drop_id L H eq_refl) as [oid Hop].
  destruct (seq_update_obs e t obj OList i ADel t' oid W L eq_refl Hop)
    as (el & r & s & wd & p & _ & P & Hn & _ & _ & R & Hs & _).
  rewrite (P eq_refl) in *. split; [|apply nth_error_Some; congruence].
  rewrite Hs, R, (resolved_no_put _ _ ADel) by discriminate. reflexivity.
Qed.

Theorem C03_list_increment_spec : forall e t obj i z t',
  wf_tx t -> lookup_type (tx_all t) obj = Some OList ->
  step e t (CInc obj (PSeq i) z) = EOk t' ->
  let ob := observe (tx_all t) in
  let ob' := observe (tx_all t') in
  exists r, nth_error (obs_seq ob obj) (N.to_nat i) = Some r /\ existsb is_vc r = true /\
    obs_seq ob' obj = firstn (N.to_nat i) (obs_seq ob obj) ++ [inc_reg z r] ++ skipn (S (N.to_nat i)) (obs_seq ob obj).
Proof. exact list_increment_spec. Qed.

(* invalid calls: an error, and nothing changes *)
Theorem C03_error_unchanged : forall e t c t' x,
  apply_call e t c = EOk (t', Some x) -> t' = t.
Proof. exact apply_call_error_unchanged. Qed.

Theorem C03_unknown_object_error : forall e t c,
  lookup_type (tx_all t)
    (match c with
     | CPut o _ _ | CPutObj o _ _ | CInsert o _ _ | CInsertObj o _ _ | CDelete o _ | CInc o _ _
     | CSplice o _ _ _ | CSpliceText o _ _ _ => o end) = None ->
  step e t c = EErr EInvalidObj.
Proof. exact unknown_object_error. Qed.

Theorem C03_wrong_key_kind_error : forall e t obj,
  (forall k v, lookup_type (tx_all t) obj = Some OList -> step e t (CPut obj (PMap k) v) = EErr EInvalidOp) /\
  (forall i v, lookup_type (tx_all t) obj = Some OMap -> step e t (CPut obj (PSeq i) v) = EErr EInvalidOp) /\
  (forall i v, lookup_type (tx_all t) obj = Some OMap -> step e t (CInsert obj i v) = EErr EInvalidOp) /\
  (forall i nt, lookup_type (tx_all t) obj = Some OText -> step e t (CPutObj obj (PSeq i) nt) = EErr EInvalidOp) /\
  (forall i z, lookup_type (tx_all t) obj = Some OMap -> step e t (CInc obj (PSeq i) z) = EErr EInvalidOp) /\
  (forall i, lookup_type (tx_all t) obj = Some OMap -> step e t (CDelete obj (PSeq i)) = EErr EInvalidOp) /\
  (forall k, lookup_type (tx_all t) obj = Some OList -> step e t (CDelete obj (PMap k)) = EErr EInvalidOp) /\
  (forall k, lookup_type (tx_all t) obj = Some OText -> step e t (CDelete obj (PMap k)) = EErr EInvalidOp) /\
  (forall i d s, lookup_type (tx_all t) obj = Some OList -> step e t (CSpliceText obj i d s) = EErr EInvalidOp).
Proof. exact wrong_key_kind_error. Qed.

Theorem C03_index_out_of_range_error : forall e t obj i,
  lookup_type (tx_all t) obj = Some OList ->
  N.of_nat (length (seq_elems (tx_all t) obj)) <= i ->
  (forall v, step e t (CPut obj (PSeq i) v) = EErr EInvalidIndex) /\
  (forall nt, step e t (CPutObj obj (PSeq i) nt) = EErr EInvalidIndex) /\
  (forall z, step e t (CInc obj (PSeq i) z) = EErr EInvalidIndex) /\
  step e t (CDelete obj (PSeq i)) = EErr EInvalidIndex /\
  (forall v, step e t (CInsert obj (i + 1) v) = EErr EInvalidIndex) /\
  (forall nt, step e t (CInsertObj obj (i + 1) nt) = EErr EInvalidIndex).
Proof. exact index_out_of_range_error. Qed.

Theorem C03_text_delete_out_of_range_error : forall e t obj i,
  lookup_type (tx_all t) obj = Some OText ->
  seq_width e OText (seq_elems (tx_all t) obj) <= i ->
  step e t (CDelete obj (PSeq i)) = EErr EInvalidIndex.
Proof.
  intros e t obj i L H. cbn [step]. unfold with_obj. rewrite L.
  apply N.leb_le in H. rewrite H. reflexivity.
Qed.

Theorem C03_increment_non_counter_error : forall e t obj k z,
  lookup_type (tx_all t) obj = Some OMap ->
  existsb is_vc (reg_at (tx_all t) obj (KMap k)) = false ->
  step e t (CInc obj (PMap k) z) = EErr EMissingCounter.
Proof. exact increment_non_counter_error. Qed.

(* the next call starts from a well-formed state again (single-op calls) *)
Theorem C03_wf_push : forall t n,
  wf_tx t -> op_id n = next_id t -> fst (op_obj n) < next_ctr t -> key_ctr (op_key n) < next_ctr t ->
  (forall p, In p (op_pred n) -> fst p < next_ctr t) -> wf_tx (push t n).
Proof. exact wf_push. Qed.

(* non-vacuity: a state with two actors, a conflicted register holding a counter and an integer,
   a list with one element; each hypothesis set above is inhabited *)
Definition ex_tx : tx :=
  begin_tx [ mkOp (1, [1]) root_id (KMap [97]) false (APut (SCounter 5)) [];
             mkOp (1, [2]) root_id (KMap [97]) false (APut (SInt 7)) [];
             mkOp (2, [1]) root_id (KMap [108]) false (AMake OList) [];
             mkOp (3, [1]) (2, [1]) (KSeq head_id) true (APut (SInt 1)) [] ] [1].

Example C03_put_nonvacuous :
  wf_tx ex_tx /\ lookup_type (tx_all ex_tx) root_id = Some OMap /\
  exists t', step EncCP ex_tx (CPut root_id (PMap [97]) (SStr [120])) = EOk t' /\
             obs_reg (observe (tx_all t')) root_id [97] = [((4, [1]), VS (SStr [120]))].
Proof. split; [vm_compute; reflexivity|]. split; [vm_compute; reflexivity|]. eexists. split; vm_compute; reflexivity. Qed.

Example C03_delete_nonvacuous :
  exists t', step EncCP ex_tx (CDelete root_id (PMap [97])) = EOk t' /\ length (tx_pending t') = 1%nat.
Proof. eexists. split; vm_compute; reflexivity. Qed.

Example C03_increment_nonvacuous :
  exists t', step EncCP ex_tx (CInc root_id (PMap [97]) 3) = EOk t' /\
             obs_reg (observe (tx_all t')) root_id [97] = [((1, [1]), VC 8)].
Proof. eexists. split; vm_compute; reflexivity. Qed.

Example C03_put_object_nonvacuous :
  exists t', step EncCP ex_tx (CPutObj root_id (PMap [98]) OText) = EOk t' /\
             obs_obj (observe (tx_all t')) (4, [1]) = Some (mkO (4, [1]) OText (EL [])).
Proof. eexists. split; vm_compute; reflexivity. Qed.

Example C03_insert_nonvacuous :
  lookup_type (tx_all ex_tx) (2, [1]) = Some OList /\
  exists t', step EncCP ex_tx (CInsert (2, [1]) 1 (SInt 2)) = EOk t' /\
             obs_seq (observe (tx_all t')) (2, [1]) = [[((3, [1]), VS (SInt 1))]; [((4, [1]), VS (SInt 2))]].
Proof. split; [vm_compute; reflexivity|]. eexists. split; vm_compute; reflexivity. Qed.

Example C03_insert_object_nonvacuous :
  exists t', step EncCP ex_tx (CInsertObj (2, [1]) 0 OMap) = EOk t' /\ length (tx_pending t') = 1%nat.
Proof. eexists. split; vm_compute; reflexivity. Qed.

Example C03_update_register_nonvacuous :
  exists t' oid, local_list_op EncCP ex_tx (2, [1]) OList 0 (APut (SInt 9)) = EOk (t', oid) /\ oid = Some (4, [1]).
Proof. eexists. eexists. split; vm_compute; reflexivity. Qed.

Example C03_errors_nonvacuous :
  apply_call EncCP ex_tx (CPut (9, [9]) (PMap [97]) SNull) = EOk (ex_tx, Some EInvalidObj) /\
  apply_call EncCP ex_tx (CPut root_id (PSeq 0) SNull) = EOk (ex_tx, Some EInvalidOp) /\
  apply_call EncCP ex_tx (CInsert (2, [1]) 2 SNull) = EOk (ex_tx, Some EInvalidIndex) /\
  apply_call EncCP ex_tx (CInc root_id (PMap [108]) 1) = EOk (ex_tx, Some EMissingCounter).
Proof. repeat split; vm_compute; reflexivity. Qed.

Example C03_list_update_nonvacuous :
  (exists t', step EncCP ex_tx (CDelete (2, [1]) (PSeq 0)) = EOk t' /\ obs_seq (observe (tx_all t')) (2, [1]) = []) /\
  (exists t', step EncCP ex_tx (CPut (2, [1]) (PSeq 0) (SCounter 2)) = EOk t' /\
              obs_seq (observe (tx_all t')) (2, [1]) = [[((4, [1]), VC 2)]]).
Proof. split; eexists; split; vm_compute; reflexivity. Qed.
