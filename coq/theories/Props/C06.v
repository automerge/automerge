(* C06 — Failed calls leave the document unchanged.
   Proved: a failed apply_changes never changes the applied changes (heads, every read), never
   adds to the queue, and two of its three error exits change nothing at all.
   REFUTED for the remaining exit: a collision with an applied (actor, seq) prunes the queue
   before returning the error (known finding D1; the suite asserts this behaviour, so it is not
   repaired). *)
From AM Require Import Base.Prelude Base.Order Crdt.Types Crdt.Doc Crdt.ErrProofs.

Theorem C06_failed_call_keeps_applied : forall d cs, applied (receive_err_state d cs) = applied d.
Proof. exact err_state_applied. Qed.

Theorem C06_failed_call_keeps_heads : forall d cs,
  heads_of (applied (receive_err_state d cs)) = heads_of (applied d).
Proof. intros d cs. rewrite err_state_applied. reflexivity. Qed.

Theorem C06_failed_call_never_adds_to_queue : forall d cs,
  incl (queue (receive_err_state d cs)) (queue d).
Proof. intros d cs. destruct (receive_err_state_filter d cs) as [f ->]. apply incl_filter. Qed.

Theorem C06_unchanged_partial : forall d cs,
  first_applied_collision d []
    (filter (fun c => negb (has_hash (applied d) (ch_hash c) || has_hash (queue d) (ch_hash c))) cs) = None ->
  receive_err_state d cs = d.
Proof. intros d cs. unfold receive_err_state. intros ->. reflexivity. Qed.

(* the full statement is false of the faithful model: known finding *)
Theorem C06_queue_unchanged_refuted :
  exists d cs, receive d cs = Err /\ queue d <> [] /\ queue (receive_err_state d cs) = [].
Proof. exact failed_call_can_drop_held_changes. Qed.
