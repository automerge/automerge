(* C38 — Actor sequence numbers stay unique.
   Proofs in Crdt/QueueProofs.v and Crdt/PruneProofs.v.  [seq_chain u]: every change of the universe
   has its actor's previous change among its transitive dependencies (true of every change the
   editing API emits; a first change with seq > 1 makes the implementation panic instead —
   known finding under C15). *)
From AM Require Import Base.Prelude Base.Order Crdt.Types Crdt.Doc Crdt.QueueProofs Crdt.Commit Crdt.PruneProofs.
Local Open Scope N_scope.

(* the invariant holds initially and every accepted delivery preserves it *)
Theorem C38_inv_empty : forall u, Inv u empty_doc.
Proof. exact Inv_empty. Qed.

Theorem C38_receive_preserves : forall u d cs d',
  hash_inj u -> seq_chain u -> incl cs u ->
  Inv u d -> receive d cs = Ok d' -> Inv u d'.
Proof. exact receive_actor_seq_unique. Qed.

(* hence no document reached by error-free deliveries holds (applied or held) two different
   changes with the same actor and sequence number *)
Theorem C38_run_actor_seq_unique : forall u batches d,
  hash_inj u -> seq_chain u -> incl (concat batches) u ->
  run empty_doc batches = Ok d -> actor_seq_unique (applied d ++ queue d).
Proof. exact run_actor_seq_unique. Qed.

(* applied sequence numbers of an actor with n applied changes lie in 1..n *)
Theorem C38_seq_range : forall u d, Inv u d ->
  forall c, In c (applied d) -> 1 <= ch_seq c <= seq_for_actor (applied d) (ch_actor c).
Proof.
  intros u d [_ [_ [Hb [Hpos _]]]] c Hc. split; [apply Hpos; apply in_or_app; left; exact Hc|exact (Hb c Hc)].
Qed.

(* a local commit that claims a sequence number (it mirrors transaction_args, also for a commit that
   ends up creating no change) discards every held change of its actor with that or a later
   sequence number - the conflicting branch - and holds back nothing new *)
Theorem C38_commit_discards_conflicting_branch : forall m r m' oc meta,
  m_commit m r = Ok (m', oc) ->
  commit_meta (applied (m_doc m)) (m_get_heads m) (cr_actor r) (cr_iso r) = Ok meta ->
  forall c, In c (queue (m_doc m')) ->
    In c (queue (m_doc m)) /\
    ~ (same_actor (ch_actor c) (cm_actor meta) = true /\ cm_seq meta <= ch_seq c).
Proof. exact commit_discards_conflicting_branch. Qed.
