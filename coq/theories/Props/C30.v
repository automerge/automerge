(* C30 — Object ids stay valid and stable.
   Statements only; proofs in Crdt/ResolveProofs.v (over Codec/ExIdProofs.v).  The model
   (Crdt/Resolve.v) mirrors Automerge::exid_to_obj: exid_to_opid (Codec/ExId.v: hint trusted only
   when actors[hint] == actor, else the actor is searched), then the object index keyed by the
   internal id of the make op; [objects ops] is the object table of the interpretation
   (Crdt/Interp.v).  [t] is a replica's actor table, [ops] the ops it holds, an id is
   [EId counter actor hint].  Side conditions: tables of at most 2^32 actors (the Rust OpId holds
   a u32 index), op ids unique within a replica, counters of real objects (1 .. u32::MAX). *)
From AM Require Import Base.Prelude Base.Order Codec.Bloom Codec.ExId Crdt.Types Crdt.Interp Crdt.Local
  Crdt.Resolve Crdt.Txn Crdt.ResolveProofs.
From AM Require Exec.TxnExec.
Local Open Scope N_scope.

(* an id whose object the replica holds resolves to that object: whatever hint it carries
   (right, stale, out of range) and however the replica numbers its actors *)
Theorem C30_resolve_present : forall (t : table) (ops : list op) (m : op) (ty : objtype) (h : N),
  lenN t <= pow32 -> NoDup (map op_id ops) -> In m ops -> make_type m = Some ty ->
  0 < fst (op_id m) <= u32_max -> In (snd (op_id m)) t ->
  resolve_obj t ops (EId (fst (op_id m)) (snd (op_id m)) h) = Ok (op_id m, ty).
Proof. exact resolve_present. Qed.

(* actor-table changes: inserting an actor (put_actor keeps the table sorted, so an actor that
   sorts first shifts every index and makes the hints of earlier ids stale) does not change what
   an id resolves to *)
Theorem C30_resolve_stable_under_actor_insert : forall (t : table) (ops : list op) (c : N) (a : bytes) (h h' : N) (b : bytes),
  lenN t <= pow32 -> lenN (put_actor t b) <= pow32 -> 0 < c -> In a t ->
  resolve_obj (put_actor t b) ops (EId c a h') = resolve_obj t ops (EId c a h).
Proof. exact resolve_stable_under_actor_insert. Qed.

(* any two tables that agree on whether they know the actor resolve the id alike *)
Theorem C30_resolve_table_irrelevant : forall (t1 t2 : table) (ops : list op) (c : N) (a : bytes) (h1 h2 : N),
  lenN t1 <= pow32 -> lenN t2 <= pow32 -> 0 < c -> (In a t1 <-> In a t2) ->
  resolve_obj t1 ops (EId c a h1) = resolve_obj t2 ops (EId c a h2).
Proof. exact resolve_table_irrelevant. Qed.

(* every replica that contains the object (holds its make op; merges, loads and forks copy
   ops) resolves the id to that same object *)
Theorem C30_resolve_same_object_any_replica :
  forall (t1 t2 : table) (ops1 ops2 : list op) (m : op) (ty : objtype) (h1 h2 : N),
  lenN t1 <= pow32 -> lenN t2 <= pow32 ->
  NoDup (map op_id ops1) -> NoDup (map op_id ops2) -> In m ops1 -> In m ops2 ->
  make_type m = Some ty -> 0 < fst (op_id m) <= u32_max ->
  In (snd (op_id m)) t1 -> In (snd (op_id m)) t2 ->
  resolve_obj t1 ops1 (EId (fst (op_id m)) (snd (op_id m)) h1) = Ok (op_id m, ty) /\
  resolve_obj t2 ops2 (EId (fst (op_id m)) (snd (op_id m)) h2) = Ok (op_id m, ty).
Proof. exact resolve_same_object_any_replica. Qed.

(* end to end: the id one replica hands out (id_to_exid, with ITS index as hint) resolved by
   another replica that holds the object *)
Theorem C30_exid_of_resolves : forall (tp tq : table) (ops : list op) (m : op) (ty : objtype) (e : exid),
  lenN tp <= pow32 -> lenN tq <= pow32 -> NoDup (map op_id ops) -> In m ops -> make_type m = Some ty ->
  0 < fst (op_id m) <= u32_max -> In (snd (op_id m)) tq ->
  exid_of tp (op_id m) = Ok e ->
  resolve_obj tq ops e = Ok (op_id m, ty).
Proof. exact exid_of_resolves. Qed.

(* a replica that does not contain the object answers with an error ... *)
Theorem C30_resolve_absent_is_error : forall (t : table) (ops : list op) (c : N) (a : bytes) (h : N),
  lenN t <= pow32 -> 0 < c ->
  (forall m, In m ops -> op_id m = (c, a) -> make_type m = None) ->
  resolve_obj t ops (EId c a h) = Err.
Proof. exact resolve_absent_is_error. Qed.

(* ... and whenever an id resolves, it is to the make op with exactly its (counter, actor):
   never to another object *)
Theorem C30_resolve_ok_sound : forall (t : table) (ops : list op) (c : N) (a : bytes) (h : N) (id : opid) (ty : objtype),
  lenN t <= pow32 -> 0 < c -> resolve_obj t ops (EId c a h) = Ok (id, ty) ->
  id = (c, a) /\ In a t /\ exists m, In m ops /\ op_id m = (c, a) /\ make_type m = Some ty.
Proof. exact resolve_ok_sound. Qed.

Theorem C30_resolve_no_panic : forall (t : table) (ops : list op) (e : exid),
  lenN t <= pow32 -> resolve_obj t ops e <> Panic.
Proof. exact resolve_no_panic. Qed.

(* the reason for the side condition 0 < c: ObjId::is_root tests the counter only, so a
   decodable id with counter 0 and any actor the replica knows names the root (no API call
   returns such an id) *)
Theorem C30_resolve_counter_zero_is_root : forall (t : table) (ops : list op) (a : bytes) (h : N),
  lenN t <= pow32 -> In a t -> resolve_obj t ops (EId 0 a h) = Ok (root_id, OMap).
Proof. exact resolve_counter_zero_is_root. Qed.

(* non-vacuity: two replicas with different actor tables (actor [9] has index 1 in one, 0 in the
   other), both holding the list made by op (3, [9]); a stale hint, a hint past the table *)
Example C30_nonvacuous :
  let mk := mkOp (3, [9]) root_id (KMap [108]) false (AMake OList) [] in
  let ops1 := [mkOp (1, [1]) root_id (KMap [97]) false (APut SNull) []; mk] in
  let ops2 := [mk; mkOp (4, [9]) (3, [9]) (KSeq head_id) true (APut SNull) []] in
  resolve_obj [[1]; [9]] ops1 (EId 3 [9] 0) = Ok ((3, [9]), OList) /\
  resolve_obj [[9]] ops2 (EId 3 [9] 7) = Ok ((3, [9]), OList) /\
  resolve_obj [[1]; [9]] ops1 (EId 4 [9] 1) = Err /\
  resolve_obj [[1]] [mkOp (1, [1]) root_id (KMap [97]) false (APut SNull) []] (EId 3 [9] 1) = Err /\
  NoDup (map op_id ops1) /\ lenN [[1]; [9]] <= pow32.
Proof.
  cbv zeta. repeat split; try reflexivity.
  - repeat constructor; cbn; intuition discriminate.
  - vm_compute. discriminate.
Qed.
