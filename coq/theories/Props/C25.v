(* C25 — Rich-text marks follow Peritext semantics and agree across reads.
   Proofs in Crdt/MarksProofs.v ([C25_get_marks_past_end] is read off [gm_walk_at_pos] here).  The model (Crdt/Marks.v) mirrors MarkStateMachine /
   MarkAccumulator (marks.rs), calculate_marks / get_marks_for / spans_for (automerge.rs, iter/spans.rs),
   InsertQuery (op_set2/op_set/insert.rs) and TransactionInner::mark / unmark.  [its] is the element
   sequence of one text (MarkBegin / MarkEnd / characters in document order), [text_view e ops obj] the
   element sequence of text [obj] in a set of operations given in any order. *)
From AM Require Import Base.Prelude Base.Order Crdt.Types Crdt.Interp Crdt.Local Crdt.Marks Crdt.MarksProofs.
Local Open Scope N_scope.

(* The Peritext rule.  At every visible character the walk reports, for a name, the value of the mark
   with the greatest id among the marks of that name that cover the character (begin before it, no
   matching end in between); a name is absent iff no mark of that name covers it. *)
Theorem C25_mark_value_highest_id : forall l1 l2 c w s n v,
  NoDup (begin_ids (l1 ++ IChar c true w s :: l2)) ->
  exists e, nth_error (marking (l1 ++ IChar c true w s :: l2) []) (length (marking l1 [])) = Some e /\
            p_id e = c /\
    (In (n, v) (p_set e) <->
     exists id, covers l1 id n v /\ forall id' v', covers l1 id' n v' -> opid_le id' id).
Proof. exact mark_value_highest_id. Qed.

(* ... a null value means unmarked: what a reader reports is the set without its null entries *)
Theorem C25_null_is_unmarked : forall m n v,
  In (n, v) (without_unmarks m) <-> In (n, v) m /\ v <> SNull.
Proof. exact without_unmarks_in. Qed.

(* the open marks after any prefix of the text: begin seen, no end naming it seen since *)
Theorem C25_open_marks : forall its id n v,
  NoDup (begin_ids its) ->
  (In (id, n, v) (final_open its) <->
   exists l1 ex l2, its = l1 ++ IBegin id ex n v :: l2 /\
                    forallb (fun it => negb (ends id it)) l2 = true).
Proof. exact open_spec. Qed.

(* get_marks(p), p a text index in the units of the document's encoding (the widths are whatever the
   characters have: code points, UTF-8 or UTF-16 units), is the pointwise marking at p ... *)
Theorem C25_get_marks_eq_pointwise : forall its p,
  p < total_w (marking its []) ->
  get_marks its p = without_unmarks (marks_at_pos its p).
Proof. exact get_marks_eq_pointwise. Qed.

(* ... and past the end of the text it reports the marks still open there *)
Theorem C25_get_marks_past_end : forall its p,
  total_w (marking its []) <= p ->
  get_marks its p = without_unmarks (current (final_open its)).
Proof.
  intros its p H. unfold get_marks.
  generalize (gm_walk_at_pos (marking its []) p 0 (N.le_0_l p)).
  destruct (gm_walk (marking its []) p 0); [lia|reflexivity].
Qed.

(* marks() — the mirror of calculate_marks_slow and MarkAccumulator (run grouping, merging of adjacent
   equal ranges, null ranges dropped): a text position lies in a reported range of name n with value v
   exactly when the pointwise marking gives n the non-null value v there *)
Theorem C25_marks_eq_pointwise : forall its p n v,
  (exists s e, In (s, e, n, v) (marks its) /\ s <= p < e) <->
  In (n, v) (without_unmarks (marks_at_pos its p)).
Proof. exact marks_eq_pointwise. Qed.

(* spans(): every code point of every span carries the span's mark set = the reported (non-null) set of
   its character; and the spans concatenate to the text *)
Theorem C25_spans_marks_eq_pointwise : forall its,
  Forall (fun e => 0 < p_w e) (marking its []) ->
  expand_spans (spans its) = pointwise_chars (marking its []).
Proof. exact spans_marks_eq_pointwise. Qed.

Theorem C25_spans_concat_text : forall its,
  Forall (fun e => 0 < p_w e) (marking its []) ->
  flat_map fst (spans its) = flat_map p_txt (marking its []).
Proof. exact spans_concat_text. Qed.

(* expand (partial: ONE mark over plain text — visible characters of positive width, no tombstones, no
   other mark; stated on the element sequence, where the new element lands right after the reference the
   insert query picks because it carries the greatest id, cf. Interp.place).  A character inserted by the
   model's insert rule (InsertQuery) exactly at the start boundary is reported as marked iff the mark
   expands before ... *)
Theorem C25_expand_single_mark_start_partial : forall pre b xb n v c w s rest q wq sq,
  Forall pos_char pre -> 0 < w ->
  NoDup (map item_id (pre ++ [IBegin b xb n v])) -> ~ In head_id (map item_id (pre ++ [IBegin b xb n v])) ->
  let its := pre ++ IBegin b xb n v :: IChar c true w s :: rest in
  exists r, anchor (items_len pre) its = Some (r, items_len pre) /\
    exists l1 l2, place_item r (IChar q true wq sq) its = l1 ++ IChar q true wq sq :: l2 /\
                  current (final_open l1) = if xb then [(n, v)] else [].
Proof. intros pre b xb n v c w s rest q wq sq Hp _. apply expand_single_mark_start, Hp. Qed.

(* ... and exactly at the end boundary iff the mark expands after *)
Theorem C25_expand_single_mark_end_partial : forall pre b xb n v mid e xe post q wq sq,
  Forall pos_char pre -> Forall pos_char mid -> mid <> [] -> opid_prev e = b ->
  (post = [] \/ exists c w s t, post = IChar c true w s :: t) ->
  NoDup (map item_id (pre ++ IBegin b xb n v :: mid ++ [IEnd e xe])) ->
  ~ In head_id (map item_id (pre ++ IBegin b xb n v :: mid ++ [IEnd e xe])) ->
  let its := pre ++ IBegin b xb n v :: mid ++ IEnd e xe :: post in
  exists r, anchor (items_len pre + items_len mid) its = Some (r, items_len pre + items_len mid) /\
    exists l1 l2, place_item r (IChar q true wq sq) its = l1 ++ IChar q true wq sq :: l2 /\
                  current (final_open l1) = if xe then [(n, v)] else [].
Proof. exact expand_single_mark_end. Qed.

(* the set reported for a character is [current] of the marks open in front of it *)
Theorem C25_marking_at_char : forall l1 st id w s l2,
  marking (l1 ++ IChar id true w s :: l2) st =
  marking l1 st ++ mkP id w s (current (fold_left step_open l1 st)) :: marking l2 (fold_left step_open l1 st).
Proof. exact marking_app. Qed.

(* a mark / unmark with an anchor past the text is rejected before anything is inserted: no op *)
Theorem C25_mark_out_of_range_no_op : forall e t obj start end_ n v x,
  (start =? end_) && x_none x = false ->
  items_len (text_items e t obj) < start \/ items_len (text_items e t obj) < end_ ->
  mark_text e t obj start end_ n v x = (t, Some EInvalidIndex).
Proof. exact mark_out_of_range_no_op. Qed.

(* the insert query finds an anchor for every index up to the length of the text (any marks, tombstones,
   zero-width elements) ... *)
Theorem C25_anchor_total : forall target its,
  target <= items_len its -> exists r i, anchor target its = Some (r, i).
Proof. exact anchor_total. Qed.

(* ... so a mark that returns an error leaves the transaction as it was.  Partial: assumes that inserting
   the (zero-width) begin op leaves the length of the text unchanged — checked by the correspondence
   harness on every transaction, not proved over [items_of]. *)
Theorem C25_failed_mark_no_op_partial : forall e t obj start end_ n v x t' er,
  (forall t1 b, do_insert_m e t obj start (AMarkBegin (x_before x) n v) = EOk (t1, b) ->
                items_len (text_items e t1 obj) = items_len (text_items e t obj)) ->
  mark_text e t obj start end_ n v x = (t', Some er) -> t' = t.
Proof. exact failed_mark_no_op_partial. Qed.

(* convergence: every reader is a function of the SET of operations *)
Theorem C25_marks_converge : forall e obj ops1 ops2,
  NoDup (map op_id ops1) -> Permutation ops1 ops2 ->
  marks (text_view e ops1 obj) = marks (text_view e ops2 obj) /\
  spans (text_view e ops1 obj) = spans (text_view e ops2 obj) /\
  (forall i, get_marks (text_view e ops1 obj) i = get_marks (text_view e ops2 obj) i) /\
  (forall p, marks_at_pos (text_view e ops1 obj) p = marks_at_pos (text_view e ops2 obj) p).
Proof. exact marks_converge. Qed.

(* non-vacuity: "ab" + e-acute + "c"; bold [1,4) by actor 1 (id 6), a concurrent bold = 7 over
   [0,2) by actor 2 (id 6, greater actor), an unmark of bold on the last marked character (id 8) *)
Definition ex_a1 : actor := [1].
Definition ex_a2 : actor := [2].
Definition ex_t : opid := (1, ex_a1).
Definition ex_bold : mname := [98; 111; 108; 100].
Definition ex_ops : list op :=
  [ mkOp (1, ex_a1) root_id (KMap [116]) false (AMake OText) [];
    mkOp (2, ex_a1) ex_t (KSeq head_id) true (APut (SStr [97])) [];
    mkOp (3, ex_a1) ex_t (KSeq (2, ex_a1)) true (APut (SStr [98])) [];
    mkOp (4, ex_a1) ex_t (KSeq (3, ex_a1)) true (APut (SStr [233])) [];
    mkOp (5, ex_a1) ex_t (KSeq (4, ex_a1)) true (APut (SStr [99])) [];
    mkOp (6, ex_a1) ex_t (KSeq (2, ex_a1)) true (AMarkBegin true ex_bold (SBool true)) [];
    mkOp (7, ex_a1) ex_t (KSeq (4, ex_a1)) true (AMarkEnd true) [];
    mkOp (6, ex_a2) ex_t (KSeq head_id) true (AMarkBegin false ex_bold (SInt 7)) [];
    mkOp (7, ex_a2) ex_t (KSeq (3, ex_a1)) true (AMarkEnd false) [];
    mkOp (8, ex_a1) ex_t (KSeq (3, ex_a1)) true (AMarkBegin false ex_bold SNull) [];
    mkOp (9, ex_a1) ex_t (KSeq (4, ex_a1)) true (AMarkEnd false) [] ].

Example C25_readers_nonvacuous :
  let its := text_view EncU8 ex_ops ex_t in
  marks its = [(0, 2, ex_bold, SInt 7)] /\
  map (get_marks its) [0; 1; 2; 3; 4; 5] = [[(ex_bold, SInt 7)]; [(ex_bold, SInt 7)]; []; []; []; []] /\
  total_w (marking its []) = 5 /\
  spans its = [([97; 98], [(ex_bold, SInt 7)]); ([233; 99], [])] /\
  map (marks_at_pos its) [0; 1; 2; 3; 4] =
    [[(ex_bold, SInt 7)]; [(ex_bold, SInt 7)]; [(ex_bold, SNull)]; [(ex_bold, SNull)]; []] /\
  NoDup (begin_ids its) /\ NoDup (map op_id ex_ops) /\
  text_view EncU8 (rev ex_ops) ex_t = its.
Proof.
  repeat split; try (vm_compute; reflexivity).
  - vm_compute. repeat constructor; cbn; intuition discriminate.
  - vm_compute. repeat constructor; cbn; intuition discriminate.
Qed.

(* non-vacuity of the expand theorems on operations: "abc", mark [1,2) by the model's [mark_text], then a
   character spliced in at the start (1) / end (2) boundary by the model's [splice_text_m] *)
Definition ex_text0 : list op :=
  [ mkOp (1, ex_a1) root_id (KMap [116]) false (AMake OText) [];
    mkOp (2, ex_a1) ex_t (KSeq head_id) true (APut (SStr [97])) [];
    mkOp (3, ex_a1) ex_t (KSeq (2, ex_a1)) true (APut (SStr [98])) [];
    mkOp (4, ex_a1) ex_t (KSeq (3, ex_a1)) true (APut (SStr [99])) [] ].
Definition ex_run (x : expand_mode) (at_ : N) : list mark :=
  let t1 := fst (mark_text EncCP (begin_tx ex_text0 ex_a1) ex_t 1 2 ex_bold (SBool true) x) in
  match splice_text_m EncCP t1 ex_t at_ 0 [81] with
  | EOk t2 => marks (text_view EncCP (tx_all t2) ex_t)
  | _ => []
  end.

Example C25_expand_nonvacuous :
  ex_run XBoth 1 = [(1, 3, ex_bold, SBool true)] /\ ex_run XBoth 2 = [(1, 3, ex_bold, SBool true)] /\
  ex_run XNone 1 = [(2, 3, ex_bold, SBool true)] /\ ex_run XNone 2 = [(1, 2, ex_bold, SBool true)] /\
  ex_run XBefore 1 = [(1, 3, ex_bold, SBool true)] /\ ex_run XBefore 2 = [(1, 2, ex_bold, SBool true)] /\
  ex_run XAfter 1 = [(2, 3, ex_bold, SBool true)] /\ ex_run XAfter 2 = [(1, 3, ex_bold, SBool true)].
Proof. repeat split; vm_compute; reflexivity. Qed.

Example C25_expand_items_nonvacuous :
  let its := text_view EncCP (tx_all (fst (mark_text EncCP (begin_tx ex_text0 ex_a1) ex_t 1 2 ex_bold (SBool true) XBefore))) ex_t in
  its = [IChar (2, ex_a1) true 1 [97]; IBegin (5, ex_a1) true ex_bold (SBool true); IChar (3, ex_a1) true 1 [98];
         IEnd (6, ex_a1) false; IChar (4, ex_a1) true 1 [99]] /\
  anchor 1 its = Some ((5, ex_a1), 1) /\ anchor 2 its = Some ((6, ex_a1), 2).
Proof. repeat split; vm_compute; reflexivity. Qed.

(* the two repaired defects on the model: e-acute, "a", "b" in UTF-8 with bold over [2,3): get_marks
   answers at text index 2; a mark whose end lies past "hello" changes nothing *)
Example C25_fixed_probes_nonvacuous :
  let ops := [ mkOp (1, ex_a1) root_id (KMap [116]) false (AMake OText) [];
               mkOp (2, ex_a1) ex_t (KSeq head_id) true (APut (SStr [233])) [];
               mkOp (3, ex_a1) ex_t (KSeq (2, ex_a1)) true (APut (SStr [97])) [];
               mkOp (4, ex_a1) ex_t (KSeq (3, ex_a1)) true (APut (SStr [98])) [] ] in
  let t0 := begin_tx ops ex_a1 in
  let t1 := fst (mark_text EncU8 t0 ex_t 2 3 ex_bold (SBool true) XNone) in
  let its := text_view EncU8 (tx_all t1) ex_t in
  marks its = [(2, 3, ex_bold, SBool true)] /\
  map (get_marks its) [0; 1; 2; 3; 4] = [[]; []; [(ex_bold, SBool true)]; []; []] /\
  mark_text EncU8 t0 ex_t 2 100 ex_bold (SBool true) XNone = (t0, Some EInvalidIndex) /\
  mark_text EncU8 t0 ex_t 5 5 ex_bold SNull XBoth = (t0, Some EInvalidIndex).
Proof. repeat split; vm_compute; reflexivity. Qed.
