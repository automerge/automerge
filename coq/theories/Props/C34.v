(* C34 — Hexane columns behave like vectors under any edits (level: spec-level).
   Each statement is a lemma of Hexane/ColSpecProofs.v or put together from several in a few lines
   (the delta presentation also from Hexane/DeltaProofs.v).  The model (Hexane/ColSpec.v) is the executable
   Vec SPECIFICATION of the column API (a column = a list of values); the slab / B-tree implementation
   is not modelled and is tied to this specification by the differential family `hexcol`.
   The theorems say that the specification has the algebra the queries promise, for every list,
   every index and every value type with a decidable equality. *)
From AM Require Import Base.Prelude Hexane.ColSpec Hexane.ColSpecProofs.
From AM Require Hexane.DeltaProofs.
From Coq Require Import Sorted.

(* edits are list surgery; out-of-range = Panic exactly when index + del exceeds the length *)
Theorem C34_splice_spec : forall (V : Type) (i del : nat) (vals l r : list V),
  splice i del vals l = Ok r <->
  (i + del <= length l /\ r = firstn i l ++ vals ++ skipn (i + del) l).
Proof. exact (@splice_ok). Qed.

Theorem C34_splice_panic : forall (V : Type) (i del : nat) (vals l : list V),
  (splice i del vals l = Panic <-> length l < i + del) /\ splice i del vals l <> Err.
Proof. intros. split; [apply splice_panic|apply splice_not_err]. Qed.

Theorem C34_splice_length : forall (V : Type) (i del : nat) (vals l r : list V),
  splice i del vals l = Ok r -> length r + del = length l + length vals.
Proof. exact (@splice_length). Qed.

(* indexed access after a splice: old items, then the new ones, then the old ones shifted *)
Theorem C34_splice_get : forall (V : Type) (i del : nat) (vals l r : list V) (k : nat),
  splice i del vals l = Ok r ->
  get k r =
    if k <? i then get k l
    else if k <? i + length vals then get (k - i) vals
    else get (k - length vals + del) l.
Proof. exact (@splice_nth). Qed.

(* insert / remove / remove_n / push / truncate / clear / extend / pop / splice_runs as list operations,
   with the out-of-range conventions of the Rust bodies *)
Theorem C34_named_edits : forall (V : Type) (l : list V),
  (forall i v, insert i v l = if i <=? length l then Ok (firstn i l ++ v :: skipn i l) else Panic) /\
  (forall i, remove i l = Ok (firstn i l ++ skipn (S i) l)) /\
  (forall i n, remove_n i n l =
     if i + n <=? length l then Ok (firstn i l ++ skipn (i + n) l)
     else if n =? 0 then Ok l else Panic) /\
  (forall v, push v l = Ok (l ++ [v])) /\
  (forall n, truncate n l = Ok (firstn n l)) /\
  clear l = Ok [] /\
  (forall vals, extend vals l = Ok (l ++ vals)) /\
  pop l = Ok (removelast l) /\
  (forall i del rs, splice_runs i del rs l = splice i del (expand_runs rs) l).
Proof.
  intros V l.
  split; [intros; apply insert_spec|]. split; [intros; apply remove_spec|].
  split; [intros; apply remove_n_spec|]. split; [intros; apply push_spec|].
  split; [intros; apply truncate_spec|]. split; [apply clear_spec|].
  split; [intros; apply extend_spec|]. split; [apply pop_spec|intros; apply splice_runs_spec].
Qed.

(* edits compose as on lists: a splice is a deletion followed by an insertion, and splices at
   disjoint places commute (the later position shifted by what the earlier one inserted / deleted) *)
Theorem C34_splice_decompose : forall (V : Type) (i del : nat) (vals l : list V),
  i + del <= length l ->
  splice i del vals l = (let* l1 := remove_n i del l in splice i 0 vals l1).
Proof. exact (@splice_decompose). Qed.

Theorem C34_splice_commute : forall (V : Type) (i1 d1 : nat) (v1 : list V) (i2 d2 : nat) (v2 l : list V),
  i1 + d1 <= i2 -> i2 + d2 <= length l ->
  (let* l' := splice i2 d2 v2 l in splice i1 d1 v1 l') =
  (let* l' := splice i1 d1 v1 l in splice (i2 + length v1 - d1) d2 v2 l').
Proof. exact (@splice_splice_commute). Qed.

(* the edit cursor: Column::splice_inner = edit_at; delete; insert_run ...; finish, and whatever a
   cursor does, the items still ahead of it are a suffix of the original column *)
Theorem C34_cursor_is_splice : forall (V : Type) (veqb : V -> V -> bool) (i del : nat)
    (rs : list (nat * V)) (l : list V),
  i + del <= length l ->
  edit_session veqb i (CDelete del :: map (fun r => CInsertRun (snd r) (fst r)) rs) l =
  splice_runs i del rs l.
Proof. exact (@cursor_session_is_splice). Qed.

Theorem C34_cursor_keeps_suffix : forall (V : Type) (veqb : V -> V -> bool) (op : cur_op)
    (c c' : cursor) (l : list V),
  cur_step veqb op c = Ok c' ->
  c_rest c = skipn (c_orig c) l -> c_orig c <= length l ->
  c_rest c' = skipn (c_orig c') l /\ c_orig c' <= length l.
Proof. exact (@cur_step_suffix). Qed.

Theorem C34_iter_range_spec : forall (V : Type) (a b : nat) (l : list V) (k : nat),
  win_start a l <= win_end a b l <= length l /\
  length (iter_range a b l) = win_end a b l - win_start a l /\
  nth_error (iter_range a b l) k =
    (if k <? win_end a b l - win_start a l then get (win_start a l + k) l else None) /\
  iter_range 0 (length l) l = l.
Proof.
  intros V a b l k. split; [apply win_bounds|]. split; [apply iter_range_length|].
  split; [apply iter_range_nth|apply iter_range_all].
Qed.

(* run iteration: expanding the runs gives the contents back, counts are positive, adjacent runs
   differ, and the run list is the only one with these properties (so it is THE maximal-run list) *)
Theorem C34_runs_concat : forall (V : Type) (veqb : V -> V -> bool),
  (forall x y, veqb x y = true <-> x = y) ->
  forall (a b : nat) (l : list V),
  expand_runs (run_iter veqb a b l) = iter_range a b l /\
  Forall (fun r => 0 < fst r) (run_iter veqb a b l) /\
  adj_diff (run_iter veqb a b l).
Proof.
  intros V veqb H a b l. exact (runs_spec veqb H (iter_range a b l)).
Qed.

Theorem C34_runs_canonical : forall (V : Type) (veqb : V -> V -> bool),
  (forall x y, veqb x y = true <-> x = y) ->
  forall rs : list (nat * V),
  Forall (fun r => 0 < fst r) rs -> adj_diff rs -> runs veqb (expand_runs rs) = rs.
Proof. exact (@runs_unique). Qed.

(* find by value: exactly the indexes of the window holding v, ascending; scan_to_value is the first *)
Theorem C34_find_by_value_spec : forall (V : Type) (veqb : V -> V -> bool),
  (forall x y, veqb x y = true <-> x = y) ->
  forall (v : V) (a b : nat) (l : list V),
  (forall k, In k (find_all veqb v a b l) <->
             win_start a l <= k < win_end a b l /\ get k l = Some v) /\
  StronglySorted lt (find_all veqb v a b l).
Proof.
  intros V veqb H v a b l. split; [intros k; apply (find_all_spec veqb H)|apply find_all_sorted].
Qed.

Theorem C34_scan_to_value_first : forall (V : Type) (veqb : V -> V -> bool),
  (forall x y, veqb x y = true <-> x = y) ->
  forall (v : V) (a b : nat) (l : list V),
  match scan_to_value veqb v a b l with
  | Some k => win_start a l <= k < win_end a b l /\ get k l = Some v /\
              forall j, win_start a l <= j < k -> get j l <> Some v
  | None => forall j, win_start a l <= j < win_end a b l -> get j l <> Some v
  end.
Proof. exact (@scan_to_value_spec). Qed.

(* scope_to_value: inside a window that is sorted (by any strict total order compatible with the
   equality test) the returned range lies inside the window and is exactly where v is; when v is absent
   it is empty (at the insertion point: everything before it is smaller) *)
Theorem C34_scope_to_value_spec : forall (V : Type) (veqb vltb : V -> V -> bool),
  (forall x y, veqb x y = true <-> x = y) ->
  (forall x, vltb x x = false) ->
  (forall x y z, vltb x y = true -> vltb y z = true -> vltb x z = true) ->
  (forall x y, vltb x y = false -> vltb y x = false -> x = y) ->
  forall (v : V) (a b : nat) (l : list V),
  sorted_asc vltb (iter_range a b l) ->
  win_start a l <= fst (scope_to_value veqb vltb v a b l) <= snd (scope_to_value veqb vltb v a b l) /\
  snd (scope_to_value veqb vltb v a b l) <= win_end a b l /\
  forall k, win_start a l <= k < win_end a b l ->
            (get k l = Some v <-> fst (scope_to_value veqb vltb v a b l) <= k < snd (scope_to_value veqb vltb v a b l)).
Proof. exact (@scope_to_value_spec). Qed.

Theorem C34_prefix_sum_app : forall (V : Type) (wt : V -> Z) (l1 l2 : list V) (i : nat),
  get_prefix wt (length l1 + i) (l1 ++ l2) = (sum wt l1 + get_prefix wt i l2)%Z.
Proof. intros V wt l1 l2 i. apply prefix_app. Qed.

Theorem C34_prefix_sum_step : forall (V : Type) (wt : V -> Z) (l : list V) (i : nat) (x : V),
  get_prefix wt 0 l = 0%Z /\
  (get i l = Some x -> get_prefix wt (S i) l = (get_prefix wt i l + wt x)%Z) /\
  (length l <= i -> get_prefix wt i l = sum wt l).
Proof.
  intros V wt l i x. split; [reflexivity|]. split; [apply prefix_S|apply prefix_clamp].
Qed.

Theorem C34_prefix_sum_monotone : forall (V : Type) (wt : V -> Z) (l : list V) (i j : nat),
  (forall x, In x l -> (0 <= wt x)%Z) -> i <= j -> (get_prefix wt i l <= get_prefix wt j l)%Z.
Proof. intros V wt l i j. apply prefix_mono. Qed.

Theorem C34_sum_range_spec : forall (V : Type) (wt : V -> Z) (a b : nat) (l : list V),
  a <= b -> sum_range wt a b l = sum wt (iter_range a b l).
Proof. exact (@sum_range_spec). Qed.

(* get_index_for_prefix(t): 0 for t <= 0; otherwise the first k in 1..len whose prefix reaches t,
   len+1 if none does; on unsigned columns it is the least such index *)
Theorem C34_index_for_prefix_spec : forall (V : Type) (wt : V -> Z) (t : Z) (l : list V),
  ((t <= 0)%Z -> index_for_prefix wt t l = 0) /\
  ((0 < t)%Z ->
     1 <= index_for_prefix wt t l <= S (length l) /\
     (forall j, 1 <= j < index_for_prefix wt t l -> (get_prefix wt j l < t)%Z) /\
     (index_for_prefix wt t l <= length l -> (t <= get_prefix wt (index_for_prefix wt t l) l)%Z) /\
     ((forall x, In x l -> (0 <= wt x)%Z) ->
        (forall j, 1 <= j -> (t <= get_prefix wt j l)%Z -> index_for_prefix wt t l <= j) /\
        ((sum wt l < t)%Z -> index_for_prefix wt t l = S (length l)))).
Proof.
  intros V wt t l. split; [apply index_for_prefix_nonpos|]. intros Ht.
  destruct (index_for_prefix_spec wt t l Ht) as (H1 & H2 & H3).
  split; [exact H1|]. split; [exact H2|]. split; [exact H3|]. intros Hnn. split.
  - intros j Hj Hge. apply Nat.nlt_ge. intros Hlt. exact (proj1 (Z.lt_nge _ _) (H2 j (conj Hj Hlt)) Hge).
  - intros Hbig. apply index_for_prefix_beyond; auto.
Qed.

(* get_index_for_total(t) names the item that owns unit t, and is the inverse of the running total
   on strictly positive columns *)
Theorem C34_index_for_total_inverse : forall (V : Type) (wt : V -> Z) (l : list V) (i : nat),
  i < length l ->
  ((forall x, In x l -> (0 <= wt x)%Z) ->
     forall t, (get_prefix wt i l < t)%Z -> (t <= get_total wt i l)%Z -> index_for_total wt t l = i) /\
  ((forall x, In x l -> (0 < wt x)%Z) ->
     index_for_total wt (get_total wt i l) l = i /\
     index_for_prefix wt (get_prefix wt (S i) l) l = S i).
Proof.
  intros V wt l i Hi. split.
  - intros Hnn t H1 H2. pose proof (prefix_nonneg wt i l Hnn).
    apply index_for_total_iff; [assumption|lia|assumption|lia].
  - intros Hpos. apply index_for_total_inverse; auto.
Qed.

(* PrefixIter: running totals are prefix sums; advance_prefix(n) lands on the item containing unit n+1 *)
Theorem C34_with_acc_spec : forall (V : Type) (wt : V -> Z) (acc : Z) (l : list V) (k : nat) (x : V),
  map fst (with_acc wt acc l) = l /\
  (get k l = Some x -> nth_error (with_acc wt acc l) k = Some (x, (acc + get_prefix wt (S k) l)%Z)).
Proof. intros V wt acc l k x. split; [apply with_acc_values|apply with_acc_nth]. Qed.

Theorem C34_advance_prefix_spec : forall (V : Type) (wt : V -> Z) (a b : nat) (n : Z) (l : list V)
    (p : nat) (d : Z) (x : V) (tot : Z),
  (forall y, In y l -> (0 <= wt y)%Z) -> (0 <= n)%Z ->
  advance_prefix wt a b n l = Some (p, d, x, tot) ->
  win_start a l <= p < win_end a b l /\ get p l = Some x /\
  d = (get_prefix wt p l - get_prefix wt (win_start a l) l)%Z /\ tot = get_total wt p l /\
  (get_prefix wt p l <= get_prefix wt (win_start a l) l + n < get_total wt p l)%Z.
Proof. exact (@advance_prefix_spec). Qed.

(* boolean columns: the accumulator is the number of trues *)
Theorem C34_bool_acc_counts : forall (i : nat) (l : list bool),
  get_prefix bool_wt i l = Z.of_nat (count_occ bool_dec (firstn i l) true).
Proof. exact bool_prefix_counts. Qed.

(* delta columns: the presentation is the running sum of the stored deltas, the stored deltas are
   determined by the presentation, nulls are stored as nulls *)
Theorem C34_delta_presentation : forall (p : Z) (l : list (option Z)),
  realize_from p (deltas_from p l) = l /\
  deltas_from p (realize_from p l) = l /\
  length (deltas_from p l) = length l /\
  (forall k, nth_error (deltas_from p l) k = Some None <-> nth_error l k = Some None).
Proof.
  intros p l. split; [exact (DeltaProofs.realize_deltas l p)|]. split; [exact (DeltaProofs.deltas_realize l p)|].
  split; [exact (DeltaProofs.deltas_length l p)|intros k; apply deltas_from_null].
Qed.

(* DeltaRuns: realizing the expanded runs of the whole column gives the column back, and each run's
   prefix is the realized running value before it *)
Theorem C34_delta_runs_concat : forall l : list (option Z),
  realize_from 0 (expand_delta_runs (delta_run_iter 0 (length l) l)) = l.
Proof. exact delta_run_iter_all. Qed.

Theorem C34_delta_runs_prefix : forall (running : Z) (rs : list (nat * option Z))
    (pre : list (Z * option Z * nat)) (p : Z) (d : option Z) (c : nat) (post : list (Z * option Z * nat)),
  delta_runs_from running rs = pre ++ (p, d, c) :: post ->
  p = running_after running (realize_from running (expand_delta_runs pre)).
Proof. exact delta_runs_prefix. Qed.

(* find_by_range / find_by_value / find_first on delta columns *)
Theorem C34_delta_find_spec : forall (lo hi v : Z) (l : list (option Z)) (k : nat),
  (In k (find_by_range lo hi l) <-> exists x, nth_error l k = Some (Some x) /\ (lo <= x < hi)%Z) /\
  StronglySorted lt (find_by_range lo hi l) /\
  (In k (find_by_value v l) <-> nth_error l k = Some (Some v)) /\
  (find_first v l = Some k ->
     nth_error l k = Some (Some v) /\ forall j, j < k -> nth_error l j <> Some (Some v)).
Proof.
  intros lo hi v l k. split; [apply find_by_range_spec|]. split; [apply find_by_range_sorted|].
  split; [apply find_by_value_spec|apply find_first_spec].
Qed.

(* non-vacuity: the hypotheses are satisfiable on concrete columns and the functions compute *)
Example C34_splice_nonvacuous :
  splice 1 2 [7; 8; 9] [1; 2; 3; 4] = Ok [1; 7; 8; 9; 4] /\ splice 3 2 [] [1; 2; 3; 4] = Panic.
Proof. split; reflexivity. Qed.

Example C34_commute_nonvacuous :
  (let* l' := splice 3 1 [9] [1; 2; 3; 4; 5] in splice 0 2 [7; 7; 7] l') = Ok [7; 7; 7; 3; 9; 5].
Proof. reflexivity. Qed.

Example C34_runs_nonvacuous :
  run_iter Nat.eqb 1 6 [5; 5; 5; 2; 2; 7; 7] = [(2, 5); (2, 2); (1, 7)].
Proof. reflexivity. Qed.

Example C34_scope_nonvacuous :
  scope_to_value Nat.eqb Nat.ltb 5 1 7 [9; 2; 5; 5; 5; 8; 9; 0] = (2, 5) /\
  scope_to_value Nat.eqb Nat.ltb 6 1 7 [9; 2; 5; 5; 5; 8; 9; 0] = (5, 5) /\
  sorted_asc Nat.ltb (iter_range 1 7 [9; 2; 5; 5; 5; 8; 9; 0]).
Proof.
  split; [reflexivity|]. split; [reflexivity|].
  cbn. repeat (constructor; [|repeat constructor]). constructor.
Qed.

Example C34_index_nonvacuous :
  let l := [5; 3; 7; 2]%Z in
  get_prefix (fun z => z) 3 l = 15%Z /\ index_for_total (fun z => z) 10%Z l = 2 /\
  index_for_prefix (fun z => z) 18%Z l = 5 /\
  advance_prefix (fun z => z) 1 4 4%Z l = Some (2, 3%Z, 7%Z, 15%Z).
Proof. repeat split; reflexivity. Qed.

Example C34_delta_nonvacuous :
  deltas_from 0 [Some 100; None; Some 101; Some 103]%Z = [Some 100; None; Some 1; Some 2]%Z /\
  delta_run_iter 0 5 [Some 10; Some 11; Some 12; None; Some 12]%Z =
    [(0%Z, Some 10%Z, 1); (10%Z, Some 1%Z, 2); (12%Z, None, 1); (12%Z, Some 0%Z, 1)] /\
  find_by_range 11 13 [Some 10; Some 11; Some 12; None; Some 12]%Z = [1; 2; 4].
Proof. repeat split; reflexivity. Qed.

Example C34_cursor_nonvacuous :
  edit_session Nat.eqb 1 [CDelete 1; CInsertRun 9 2; CSeek 3; CReplace 0] [1; 2; 3; 4; 5] =
    Ok [1; 9; 9; 3; 0; 5] /\
  edit_session Nat.eqb 2 [CAdvance 2; CSeek 3] [1; 2; 3; 4; 5] = Panic.
Proof. split; reflexivity. Qed.
