(* C22 — Read-only sync never applies incoming changes; the other peer still receives the read-only
   peer's changes; switching back to read-write makes the peer catch up.
   Statements only; proofs in Sync/ProtoProofs.v.  Every theorem is quantified over the Bloom filter
   (type, constructor, query): false positives are arbitrary. *)
From AM Require Import Base.Prelude Base.Order Gen.Consts Crdt.Types Crdt.Doc Sync.Proto Sync.ProtoProofs.
Local Open Scope N_scope.

(* for EVERY state with read_only set and EVERY message, the document after receive is the document before *)
Theorem C22_read_only_receive_doc_unchanged :
  forall (B : Type) (d : doc) (s : sync_state B) (m : message B) d' s',
    read_only s = true -> receive_sync_message d s m = Ok (d', s') -> d' = d.
Proof. exact read_only_receive_doc_unchanged. Qed.

(* which changes go into a message is independent of our own read-only flag, and contains every change the
   peer lacks according to what it told us (not an ancestor of its last_sync, reported by none of its
   filters, not already sent in this session) *)
Theorem C22_read_only_still_sends :
  forall (B : Type) (b_query : B -> N -> bool) (d : doc) (s : sync_state B) (ro : bool) hv nd b c,
    their_have s = Some hv -> hv <> [] -> their_need s = Some nd -> peer_read_only s = false ->
    build b_query d (with_read_only B s ro) = Some b ->
    In c (get_changes (applied d) (flat_map hv_last_sync hv)) ->
    all_negative b_query (map hv_bloom hv) (ch_hash c) = true ->
    ~ In (ch_hash c) (sent_hashes s) ->
    In (ch_hash c) (b_hashes b).
Proof. exact read_only_still_sends. Qed.

(* a read-only peer with something to send that is not waiting for an answer does send it, flagged READ_ONLY,
   asking for nothing *)
Theorem C22_read_only_generate_sends :
  forall (B : Type) (b_make : list N -> B) (b_query : B -> N -> bool) (d : doc) (s : sync_state B) b,
    read_only s = true -> reset_cond d s = false -> build b_query d s = Some b ->
    b_hashes b <> [] -> in_flight s = false ->
    exists s' m, generate_sync_message b_make b_query d s = (s', Some m) /\ m_changes m = b_changes b /\
                 m_flags m <> None /\ (forall f, m_flags m = Some f -> flag_has f FLAG_READ_ONLY = true) /\
                 m_need m = [] /\ read_only s' = true /\ in_flight s' = true.
Proof. exact read_only_generate_sends. Qed.

(* switching back: the session is forgotten (only the peer's capabilities survive), and the next generate
   always produces a message that either carries SYNC_RESET (peer understands it) or announces no heads
   (old peer), with a filter over ALL our changes and no read-only flag *)
Theorem C22_set_read_only_false_requests_reset :
  forall (B : Type) (b_make : list N -> B) (b_query : B -> N -> bool) (d : doc) (s : sync_state B),
    read_only s = true ->
    exists s2 m, generate_sync_message b_make b_query d (set_read_only s false) = (s2, Some m) /\
      needs_reset s2 = false /\ read_only s2 = false /\ in_flight s2 = true /\
      m_need m = [] /\ m_have m = [make_bloom b_make d []] /\ m_changes m = None /\
      ((peer_supports_sync_reset s = true /\ m_heads m = heads_of (applied d) /\
        exists f, m_flags m = Some f /\ flag_has f FLAG_SYNC_RESET = true /\ flag_has f FLAG_READ_ONLY = false)
       \/ (peer_supports_sync_reset s = false /\ m_heads m = [] /\
           exists f, m_flags m = Some f /\ flag_has f FLAG_READ_ONLY = false)).
Proof. exact set_read_only_false_requests_reset. Qed.

(* either form of the reset empties the receiver's record of what it has already sent *)
Theorem C22_reset_clears_sent_hashes :
  forall (B : Type) (d : doc) (s : sync_state B) (m : message B) d' s',
    receive_sync_message d s m = Ok (d', s') ->
    (exists f, m_flags m = Some f /\ flag_has f FLAG_SYNC_RESET = true) \/ m_heads m = [] ->
    sent_hashes s' = [].
Proof. exact reset_clears_sent_hashes. Qed.

(* catch-up (partial): once the writer has received the message generated right after the switch, its next
   builder carries every one of its changes that the switched peer's filter does not report — with no
   false positive that is every change the peer skipped.  NOT proved here: that the changes withheld by a
   false positive are then fetched through `need` and that the exchange terminates (explored by the
   harness: after the switch every session is run to quiescence and the documents compared). *)
Theorem C22_catch_up_after_reset_partial :
  forall (B : Type) (b_make : list N -> B) (b_query : B -> N -> bool) (dR dW : doc) (sR sW : sync_state B),
    read_only sR = true ->
    exists sR2 m, generate_sync_message b_make b_query dR (set_read_only sR false) = (sR2, Some m) /\
      forall dW' sW', receive_sync_message dW sW m = Ok (dW', sW') ->
        dW' = dW /\ sent_hashes sW' = [] /\ peer_read_only sW' = false /\
        forall b, build b_query dW sW' = Some b ->
          forall c, In c (applied dW) ->
            b_query (b_make (hashes (applied dR))) (ch_hash c) = false ->
            In (ch_hash c) (b_hashes b).
Proof. exact catch_up_after_reset_partial. Qed.

(* non-vacuity: a read-only peer R (one change) and a writer W (another change), set-valued filter *)
Definition ex_make (l : list N) : list N := l.
Definition ex_query (l : list N) (h : N) : bool := memN h l.
Definition ex_c1 : change := mkChange 11 [1] 1 1 [] [].
Definition ex_c2 : change := mkChange 22 [2] 1 1 [] [].
Definition ex_dR : doc := mkDoc [ex_c1] [].
Definition ex_dW : doc := mkDoc [ex_c2] [].
Definition ex_msgW : message (list N) :=
  match generate_sync_message ex_make ex_query ex_dW fresh_state with (_, Some m) => m | _ => mkMsg [] [] [] None None end.

Example C22_read_only_receive_nonvacuous :
  exists s', receive_sync_message ex_dR (@fresh_read_only (list N))
               (mkMsg [22] [] [] (Some [ex_c2]) (Some 4)) = Ok (ex_dR, s') /\ read_only s' = true.
Proof. eexists. split; [vm_compute; reflexivity|reflexivity]. Qed.

Example C22_read_only_sends_nonvacuous :
  exists sR1 sR2 m, receive_sync_message ex_dR fresh_read_only ex_msgW = Ok (ex_dR, sR1) /\
    generate_sync_message ex_make ex_query ex_dR sR1 = (sR2, Some m) /\
    m_changes m = Some [ex_c1] /\ m_flags m = Some 6.
Proof. do 3 eexists. split; [vm_compute; reflexivity|]. split; [vm_compute; reflexivity|]. split; reflexivity. Qed.

Example C22_catch_up_nonvacuous :
  exists sR2 m sW' b, generate_sync_message ex_make ex_query ex_dR (set_read_only fresh_read_only false) = (sR2, Some m) /\
    m_heads m = [] /\ receive_sync_message ex_dW fresh_state m = Ok (ex_dW, sW') /\
    build ex_query ex_dW sW' = Some b /\ b_hashes b = [22].
Proof.
  do 4 eexists. split; [vm_compute; reflexivity|]. split; [reflexivity|].
  split; [vm_compute; reflexivity|]. split; [vm_compute; reflexivity|reflexivity].
Qed.

Example C22_reset_clears_sent_hashes_nonvacuous :
  exists s', receive_sync_message ex_dW
      (mkSS [] [22] (Some [11]) (Some []) (Some []) [22] true true None false true false)
      (mkMsg [11] [] [mkHave [] [11]] None (Some 5)) = Ok (ex_dW, s') /\
    sent_hashes s' = [] /\ peer_read_only s' = false.
Proof. eexists. split; [vm_compute; reflexivity|]. split; reflexivity. Qed.
