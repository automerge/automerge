(* C17 — Untrusted input cannot exhaust memory or time (the part that is proved).
   Each statement is a lemma of Codec/CostProofs.v, or follows by a line of arithmetic from one of them or
   from the canonical-form / range lemmas of Base/Leb128.v, Base/Sleb128Proofs.v, Hexane/HlebProofs.v.

   SCOPE, honestly: these are cost bounds for the MODELLED small decoders —
     LEB128 readers (storage/parse/leb128.rs and the `leb128` crate used by hexane),
     the Bloom filter (sync/bloom.rs), the sync message and state (sync.rs, sync/state.rs),
     object ids and cursors from bytes (exid.rs, cursor.rs), the change chunk container
     (storage/change.rs: everything up to the opaque column data), the chunk header
     (storage/chunk.rs).
   For each: wherever a number read from the wire sizes an allocation or a loop, the size of the
   decoded value (elements of every Vec, bytes of every byte string: what the Rust allocates) and
   the number of loop iterations are bounded by the number of INPUT BYTES, whatever the wire
   declares; a declared count or length larger than the remaining input is rejected.

   NOT modelled, hence not covered here: the document / change / bundle COLUMN loaders (hexane
   run counts, change_graph.rs [Vec::with_capacity(len)], the collector's OutOfMemory guard).
   Those are MEASURED by the harness family `robust` (counting allocator + wall clock), not
   proved.  A bound on the decoded value is a bound on what the decoder keeps; transient
   allocations of the Rust that the model does not show (e.g. Vec growth doubling) are within a
   constant factor of it and are also what the harness measures.

   [length] is the number of bytes / elements ([nat]); [Bloom.lenN] and [Chunk.lenN] are
   [N.of_nat (length _)]. *)
From AM Require Import Base.Prelude Base.Leb128 Base.Sleb128 Base.Sleb128Proofs Gen.Consts.
From AM Require Import Hexane.Hleb Hexane.HlebProofs.
From AM Require Import Store.Chunk Store.ChunkProofs Store.ChangeChunk Store.ChangeChunkProofs.
From AM Require Import Codec.Bloom Codec.BloomProofs Codec.Hex Codec.SyncCodec Codec.SyncProofs
  Codec.ExId Codec.CursorCodec Codec.CostProofs.

(* every reader consumes between 1 and 10 bytes and returns the unread suffix *)
Theorem C17_uleb_consumes : forall (l : bytes) (v : N) (r : bytes),
  uleb_dec l = Ok (v, r) ->
  exists k, 1 <= k <= 10 /\ length l = k + length r /\ l = firstn k l ++ r.
Proof. exact uleb_dec_cost. Qed.

Example C17_uleb_consumes_nonvacuous :
  uleb_dec [255; 255; 255; 255; 255; 255; 255; 255; 255; 1; 9]%N = Ok (18446744073709551615%N, [9%N])
  /\ uleb_dec [255; 255; 255; 255; 255; 255; 255; 255; 255; 129; 0]%N = Err.
Proof. vm_compute. auto. Qed.

Theorem C17_uleb_value : forall (l : bytes) (v : N) (r : bytes),
  wf_bytes l -> uleb_dec l = Ok (v, r) -> (v < pow64)%N.
Proof. intros l v r Hwf H. apply uleb_canonical in H; tauto. Qed.

Theorem C17_sleb_consumes : forall (l : bytes) (v : Z) (r : bytes),
  sleb_dec l = Ok (v, r) ->
  exists k, 1 <= k <= 10 /\ length l = k + length r /\ l = firstn k l ++ r.
Proof. exact sleb_dec_cost. Qed.

Example C17_sleb_consumes_nonvacuous :
  sleb_dec [128; 128; 128; 128; 128; 128; 128; 128; 128; 127; 9]%N = Ok (Sleb128.i64_min, [9%N]).
Proof. vm_compute. reflexivity. Qed.

Theorem C17_sleb_value : forall (l : bytes) (v : Z) (r : bytes),
  wf_bytes l -> sleb_dec l = Ok (v, r) -> Sleb128.in_i64 v.
Proof. intros l v r Hwf H. apply sleb_canonical in H; tauto. Qed.

(* hexane's readers (the `leb128` crate) accept over-long encodings, but still stop at ten bytes *)
Theorem C17_hleb_u_consumes : forall (l : bytes) (v : N) (r : bytes),
  hleb_u l = Some (v, r) ->
  exists k, 1 <= k <= 10 /\ length l = k + length r /\ l = firstn k l ++ r.
Proof. exact hleb_u_cost. Qed.

Theorem C17_hleb_s_consumes : forall (l : bytes) (v : Z) (r : bytes),
  hleb_s l = Some (v, r) ->
  exists k, 1 <= k <= 10 /\ length l = k + length r /\ l = firstn k l ++ r.
Proof. exact hleb_s_cost. Qed.

Example C17_hleb_consumes_nonvacuous :
  hleb_u [128; 128; 128; 128; 128; 128; 128; 128; 128; 0; 9]%N = Some (0%N, [9%N])
  /\ hleb_s [255; 255; 255; 255; 255; 255; 255; 255; 255; 127; 9]%N = Some ((-1)%Z, [9%N])
  /\ hleb_u [128; 128; 128; 128; 128; 128; 128; 128; 128; 128; 0]%N = None.
Proof. vm_compute. auto. Qed.

Theorem C17_hleb_u_value : forall (l : bytes) (v : N) (r : bytes),
  wf_bytes l -> hleb_u l = Some (v, r) -> (v < pow64)%N.
Proof. exact hleb_u_range. Qed.

Theorem C17_hleb_s_value : forall (l : bytes) (v : Z) (r : bytes),
  wf_bytes l -> hleb_s l = Some (v, r) -> Hleb.in_i64 v.
Proof. exact hleb_s_range. Qed.

(* the bytes handed out were present in the input *)
Theorem C17_length_prefixed_bytes : forall (i b r : bytes),
  length_prefixed_bytes i = Ok (b, r) -> length b + length r + 1 <= length i.
Proof. intros i b r H. apply lpb_cost in H. lia. Qed.

(* a declared length beyond the remaining input is an error *)
Theorem C17_length_prefixed_bytes_overlong : forall (i : bytes) (n : N) (i' : bytes),
  uleb_dec i = Ok (n, i') -> (Bloom.lenN i' < n)%N -> length_prefixed_bytes i = Err.
Proof. exact lpb_overlong. Qed.

Example C17_length_prefixed_bytes_nonvacuous :
  length_prefixed_bytes [2; 7; 8; 9]%N = Ok ([7; 8]%N, [9%N])
  /\ length_prefixed_bytes [255; 255; 255; 255; 255; 255; 255; 255; 255; 1; 7]%N = Err.
Proof. vm_compute. auto. Qed.

(* [length_prefixed item]: if every item accounts for its weight in input bytes, the decoded list
   weighs at most the input — whatever count the wire declared *)
Theorem C17_length_prefixed : forall (A : Type) (item : bytes -> res (A * bytes)) (w : A -> nat),
  (forall i x r, item i = Ok (x, r) -> w x + length r <= length i) ->
  forall (i : bytes) (xs : list A) (r : bytes),
    length_prefixed item i = Ok (xs, r) -> wsum w xs + length r + 1 <= length i.
Proof. exact (@length_prefixed_cost). Qed.

(* in particular the number of Vec pushes is at most the number of input bytes as soon as every
   item consumes a byte *)
Theorem C17_length_prefixed_len : forall (A : Type) (item : bytes -> res (A * bytes)),
  (forall i x r, item i = Ok (x, r) -> length r < length i) ->
  forall (i : bytes) (xs : list A) (r : bytes),
    length_prefixed item i = Ok (xs, r) -> length xs + length r + 1 <= length i.
Proof. exact (@length_prefixed_len). Qed.

(* the loop: the number of calls of [item] (successful or not) is at most |input| + 1 and at most
   the declared count, for every fuel of the model *)
Theorem C17_loop_iterations : forall (A : Type) (item : bytes -> res (A * bytes)),
  (forall i x r, item i = Ok (x, r) -> length r < length i) ->
  forall (fuel : nat) (count : N) (i : bytes),
    read_many_iters item fuel count i <= S (length i)
    /\ (N.of_nat (read_many_iters item fuel count i) <= count)%N.
Proof. exact (@read_many_iters_bound). Qed.

(* [read_many_iters] counts the iterations of the run that [read_many] describes *)
Theorem C17_loop_iterations_ok : forall (A : Type) (item : bytes -> res (A * bytes)),
  forall (fuel : nat) (count : N) (i : bytes) (xs : list A) (r : bytes),
    read_many item fuel count i = Ok (xs, r) -> read_many_iters item fuel count i = length xs.
Proof. exact (@read_many_iters_ok). Qed.

(* a declared count above the number of remaining bytes never succeeds *)
Theorem C17_loop_overcount : forall (A : Type) (item : bytes -> res (A * bytes)),
  (forall i x r, item i = Ok (x, r) -> length r < length i) ->
  forall (fuel : nat) (count : N) (i : bytes) (xs : list A) (r : bytes),
    (Bloom.lenN i < count)%N -> read_many item fuel count i <> Ok (xs, r).
Proof. exact (@read_many_overcount). Qed.

(* the hypothesis holds for the three item parsers of the sync codec *)
Theorem C17_items_consume :
  (forall i x r, change_hash i = Ok (x, r) -> length r < length i)
  /\ (forall i x r, length_prefixed_bytes i = Ok (x, r) -> length r < length i)
  /\ (forall i x r, parse_have i = Ok (x, r) -> length r < length i).
Proof.
  repeat split; intros i x r H.
  - apply change_hash_cost in H. lia.
  - apply lpb_cost in H. lia.
  - apply parse_have_cost in H. lia.
Qed.

(* hashes: 32 input bytes per decoded hash *)
Theorem C17_hashes : forall (i : bytes) (hs : list bytes) (r : bytes),
  parse_hashes i = Ok (hs, r) ->
  32 * length hs + length r + 1 <= length i /\ Forall (fun h => length h = 32) hs.
Proof. exact parse_hashes_cost. Qed.

Theorem C17_hashes_overcount : forall (i : bytes) (n : N) (i' : bytes),
  uleb_dec i = Ok (n, i') -> (Bloom.lenN i' < 32 * n)%N ->
  forall (hs : list bytes) (r : bytes), parse_hashes i <> Ok (hs, r).
Proof. exact parse_hashes_overcount. Qed.

Example C17_hashes_nonvacuous :
  parse_hashes (1 :: repeat 7 32 ++ [9])%N = Ok ([repeat 7%N 32], [9%N])
  /\ parse_hashes [255; 255; 255; 255; 255; 255; 255; 255; 255; 1]%N = Err
  /\ read_many_iters change_hash 1 18446744073709551615%N [] = 1.
Proof. vm_compute. auto. Qed.

(* [msg_size]: one unit per element of heads / need / have / changes, 32 bytes per hash, the Bloom
   bit arrays, the bytes of the changes *)
Theorem C17_message_decode : forall (i : bytes) (m : message),
  message_decode i = Ok m -> msg_size m + 5 <= length i.
Proof. exact message_decode_cost. Qed.

Theorem C17_message_counts : forall (i : bytes) (m : message),
  message_decode i = Ok m ->
  length (m_heads m) + length (m_need m) + length (m_have m) + length (m_changes m) <= length i
  /\ length (concat (m_changes m)) + wsum have_size (m_have m) <= length i.
Proof. exact message_decode_counts. Qed.

(* the smallest message (tight), and a message declaring 2^64-1 heads in 11 bytes: rejected *)
Example C17_message_decode_nonvacuous :
  message_decode [66; 0; 0; 0; 0]%N = Ok (mkMsg [] [] [] [] None V1)
  /\ message_decode [66; 255; 255; 255; 255; 255; 255; 255; 255; 255; 1]%N = Err
  /\ message_decode [66; 0; 0; 255; 255; 255; 255; 255; 255; 255; 255; 255; 1]%N = Err
  /\ message_decode [66; 0; 0; 0; 255; 255; 255; 255; 255; 255; 255; 255; 255; 1]%N = Err.
Proof. vm_compute. auto. Qed.

Theorem C17_state_decode : forall (i : bytes) (s : state),
  state_decode i = Ok s ->
  32 * length (s_shared_heads s) + 2 <= length i /\ s = state_persisted (s_shared_heads s).
Proof. exact state_decode_cost. Qed.

Example C17_state_decode_nonvacuous :
  state_decode [67; 0]%N = Ok (state_persisted [])
  /\ state_decode [67; 255; 255; 255; 255; 255; 255; 255; 255; 255; 1]%N = Err.
Proof. vm_compute. auto. Qed.

(* the bit array was present in the input, the probe count is at most the number of bits, one
   query costs at most 8 * |input| steps *)
Theorem C17_bloom_parse : forall (bs : bytes) (f : filter) (rest : bytes),
  Bloom.parse bs = Ok (f, rest) ->
  (Bloom.lenN (f_bits f) + Bloom.lenN rest <= Bloom.lenN bs)%N
  /\ (f_bits f = [] \/ (f_probes f <= 8 * Bloom.lenN (f_bits f))%N)
  /\ (query_steps f <= 8 * Bloom.lenN bs)%N.
Proof. exact bloom_parse_cost. Qed.

(* entries * bits_per_entry is bounded by the bits present *)
Theorem C17_bloom_capacity : forall (bs : bytes) (f : filter) (rest : bytes),
  Bloom.parse bs = Ok (f, rest) ->
  bits_capacity (f_entries f) (f_bpe f) = Bloom.lenN (f_bits f)
  /\ (f_entries f * f_bpe f <= 8 * Bloom.lenN bs)%N.
Proof. exact bloom_parse_capacity. Qed.

(* declared sizes the input cannot hold are rejected: bit array longer than the rest of the
   input, or more probes than bits (fix 6de6d80cd) *)
Theorem C17_bloom_overdeclared : forall (bs : bytes) (e b p : N) (i1 i2 i3 : bytes),
  bs <> [] ->
  uleb_dec_u32 bs = Ok (e, i1) -> uleb_dec_u32 i1 = Ok (b, i2) -> uleb_dec_u32 i2 = Ok (p, i3) ->
  (Bloom.lenN i3 < bits_capacity e b)%N
  \/ (bits_capacity e b <> 0 /\ 8 * bits_capacity e b < p)%N ->
  Bloom.parse bs = Err.
Proof. exact bloom_parse_overdeclared. Qed.

(* the probe Vec built by one [contains_hash] *)
Theorem C17_bloom_probes : forall (bs : bytes) (f : filter) (rest h : bytes) (ps : list N),
  Bloom.parse bs = Ok (f, rest) -> f_bits f <> [] -> get_probes f h = Ok ps ->
  Bloom.lenN ps = N.max (f_probes f) 1 /\ (Bloom.lenN ps <= 8 * Bloom.lenN bs)%N.
Proof. exact bloom_contains_probes. Qed.

(* the D4 witness (entries 1, 8 bits per entry, 2^28-1 probes, one byte of bits) is rejected;
   the same filter with 8 probes is accepted *)
Example C17_bloom_nonvacuous :
  Bloom.parse [1; 8; 255; 255; 255; 127; 170]%N = Err
  /\ Bloom.parse [1; 8; 8; 170]%N = Ok (mkFilter 1 8 8 [170%N], [])
  /\ Bloom.parse [255; 255; 255; 255; 15; 8; 1; 170]%N = Err
  /\ get_probes (mkFilter 1 8 8 [170%N]) (repeat 1%N 32) = Ok [1; 2; 4; 7; 3; 0; 6; 5]%N.
Proof. vm_compute. auto. Qed.

Theorem C17_exid : forall (l : bytes) (e : exid),
  exid_of_bytes l = Ok e ->
  exid_size e + 1 <= length l /\ (e <> ERoot -> exid_size e + 4 <= length l).
Proof. exact exid_of_bytes_cost. Qed.

Theorem C17_cursor : forall (l : bytes) (c : cursor),
  cursor_of_bytes l = Ok c -> cursor_size c + 2 <= length l.
Proof. exact cursor_of_bytes_cost. Qed.

Example C17_ids_nonvacuous :
  exid_of_bytes [16; 1; 7; 0; 1]%N = Ok (EId 1 [7%N] 0)
  /\ exid_of_bytes [16; 255; 255; 255; 255; 255; 255; 255; 255; 255; 1; 7; 0; 1]%N = Err
  /\ cursor_of_bytes [1; 3; 1; 7; 1; 2]%N = Ok (COp 1 [7%N] MAfter)
  /\ cursor_of_bytes [1; 3; 255; 255; 255; 255; 255; 255; 255; 255; 255; 1; 7; 1; 2]%N = Err.
Proof. vm_compute. auto. Qed.

(* [body_size]: 32 bytes per dependency, actor, message, other actors (one unit each + their
   bytes), two units per column, column data, trailing bytes *)
Theorem C17_change_body : forall (b : bytes) (c : change_body),
  parse_body b = Ok c ->
  body_size c + 8 <= length b
  /\ N.of_nat (length (cb_data c)) = sumN (map snd (cb_cols c)).
Proof. exact parse_body_cost. Qed.

Theorem C17_change_body_counts : forall (b : bytes) (c : change_body),
  parse_body b = Ok c ->
  32 * length (cb_deps c) <= length b /\ length (cb_actor c) <= length b
  /\ length (cb_message c) <= length b
  /\ length (cb_others c) + length (concat (cb_others c)) <= length b
  /\ 2 * length (cb_cols c) <= length b
  /\ (sumN (map snd (cb_cols c)) <= N.of_nat (length b))%N.
Proof. exact parse_body_counts. Qed.

(* [apply_n]: the model rejects a count above the remaining bytes at once where the Rust loops;
   the loop ends in the same error *)
Theorem C17_apply_n_overcount : forall (A : Type) (p : bytes -> res (A * bytes)),
  (forall i x r, p i = Ok (x, r) -> length r < length i) -> (forall l, p l <> Panic) ->
  forall (n : nat) (i : bytes), length i < n -> rep_nat p n i = Err.
Proof. exact (@rep_nat_overcount). Qed.

(* the smallest body (tight); a body declaring 2^64-1 dependencies; a body whose single column
   declares 2^64-1 bytes of data *)
Example C17_change_body_nonvacuous :
  parse_body [0; 0; 0; 1; 0; 0; 0; 0]%N = Ok (mkBody [] [] 0 1 0 [] [] [] [] [])
  /\ parse_body [255; 255; 255; 255; 255; 255; 255; 255; 255; 1; 0; 0; 1; 0; 0; 0; 0]%N = Err
  /\ parse_body [0; 0; 0; 1; 0; 0; 0; 1; 1; 255; 255; 255; 255; 255; 255; 255; 255; 255; 1]%N = Err.
Proof. vm_compute. auto. Qed.

Theorem C17_chunk_header : forall (bs : bytes) (h : header) (rest : bytes),
  parse_header bs = Ok (h, rest) ->
  length (h_data h) + length rest + 10 <= length bs /\ length (h_checksum h) = 4.
Proof. exact parse_header_cost. Qed.

Theorem C17_chunk_header_overlong : forall (magic ck : bytes) (ty len : N) (i i' : bytes),
  length magic = 4 -> length ck = 4 ->
  uleb_dec i = Ok (len, i') -> (Chunk.lenN i' < len)%N ->
  parse_header (magic ++ ck ++ ty :: i) = Err.
Proof. exact parse_header_overlong. Qed.

(* every chunk that parses consumed at least ten bytes: the chunk loop of load / load_changes
   runs at most |input| / 10 times (whatever the hash, the body parser and inflate are) *)
Theorem C17_chunk_consumes : forall (Hsh : bytes -> bytes) (C : Type)
  (body : N -> bytes -> option (list C)) (inflate : bytes -> option bytes)
  (bs : bytes) (ty : N) (cs : list C) (rest : bytes),
  parse_chunk Hsh C body inflate bs = Ok (ty, cs, rest) -> length rest + 10 <= length bs.
Proof. exact parse_chunk_cost. Qed.

Example C17_chunk_header_nonvacuous :
  parse_header (MAGIC_BYTES ++ [0; 0; 0; 0; 1; 0])%N = Ok (mkHeader [0; 0; 0; 0]%N 1 [], [])
  /\ parse_header (MAGIC_BYTES ++ [0; 0; 0; 0; 1; 255; 255; 255; 255; 255; 255; 255; 255; 255; 1; 7])%N = Err.
Proof. vm_compute. auto. Qed.
