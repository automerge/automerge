(* C10 — History is immutable and content-addressed: the get_changes part.
   Proofs in Crdt/CommitProofs.v.  Byte identity of retrieved changes and
   hash = SHA-256(chunk) are checked on the implementation (family "meta"): the model stores
   changes verbatim and cannot exhibit a re-encoding defect.
   [Built appl]: the applied list was built by appending changes whose dependencies were
   applied and whose hash was new — an invariant of every delivery and commit
   (C10_built_reachable). *)
From AM Require Import Base.Prelude Base.Order Crdt.Types Crdt.Doc Crdt.QueueProofs Crdt.ClockProofs
  Crdt.Commit Crdt.CommitProofs.
Local Open Scope N_scope.

(* get_changes(have) = exactly the applied changes that are not ancestors of [have] ([Anc] is
   the reflexive-transitive dependency relation from the given hashes; unknown hashes count for
   nothing), none twice, each after those of its dependencies that are returned; a dependency
   that is not returned is an ancestor of [have] *)
Theorem C10_get_changes_spec : forall appl have, Built appl ->
  (forall c, In c (get_changes appl have) <-> In c appl /\ ~ Anc appl have c) /\
  NoDup (hashes (get_changes appl have)) /\
  (forall pre c post, get_changes appl have = pre ++ c :: post ->
     forall h, In h (ch_deps c) ->
       In h (hashes pre) \/ exists d, Anc appl have d /\ ch_hash d = h).
Proof. exact get_changes_spec. Qed.

Theorem C10_built_reachable : forall steps m,
  run_fresh m_empty steps -> m_run m_empty steps = Ok m -> Built (applied (m_doc m)).
Proof. intros steps m Hf H. exact (proj1 (MInv_run steps m_empty m MInv_empty Hf H)). Qed.

(* the code does not walk the graph: it computes a per-actor sequence clock of [have] and
   returns every change above it ([get_changes_impl], mirror of get_build_indexes).  That is the
   specification whenever each actor's changes form a chain under the ancestor relation ... *)
Theorem C10_get_changes_impl_eq_spec : forall appl have, Built appl -> ActorChain appl ->
  get_changes_impl appl have = get_changes appl have.
Proof. exact get_changes_impl_eq_spec. Qed.

(* ... which holds in every state reached from the empty document by local commits (plain,
   empty, isolated: since the repair of isolate_actor an isolated transaction is written by an
   actor whose latest change is an ancestor of the isolation heads) and by deliveries of changes
   that continue their actor's chain ([run_chain_ok], see C04_chain_invariant) *)
Theorem C10_get_changes_impl_reachable : forall steps m have,
  run_fresh m_empty steps -> run_chain_ok m_empty steps -> m_run m_empty steps = Ok m ->
  get_changes_impl (applied (m_doc m)) have = get_changes (applied (m_doc m)) have.
Proof.
  intros steps m have Hf Hok H. apply get_changes_impl_eq_spec.
  - exact (proj1 (MInv_run steps m_empty m MInv_empty Hf H)).
  - exact (proj2 (chain_invariant steps m_empty m MInv_empty AChain_nil Hf Hok H)).
Qed.

(* non-vacuity of the hypotheses: a run with a delivery and all three kinds of commit *)
Example C10_reachable_nonvacuous :
  let c1 := mkChange 11 [1] 1 1 [] [dummy_op] in
  let steps := [ SCommit (mkReq [2] None [dummy_op] false 21);
                 SReceive [c1];
                 SCommit (mkReq [2] None [] true 22);
                 SCommit (mkReq [2] (Some [21]) [dummy_op] false 23) ] in
  run_fresh m_empty steps /\ run_chain_ok m_empty steps /\ exists m, m_run m_empty steps = Ok m.
Proof.
  split; [vm_compute; intuition discriminate|]. split; [|eexists; vm_compute; reflexivity].
  eapply run_chain_ok_cons; [vm_compute; reflexivity|exact I|].
  eapply run_chain_ok_cons; [vm_compute; reflexivity| |].
  - intros pre c post. vm_compute. intros H.
    destruct pre as [|x pre]; [|destruct pre; discriminate]. inversion H; subst. split; [vm_compute; reflexivity|].
    intros p. vm_compute. discriminate.
  - eapply run_chain_ok_cons; [vm_compute; reflexivity|exact I|].
    eapply run_chain_ok_cons; [vm_compute; reflexivity|exact I|exact I].
Qed.

(* non-vacuity: a two-branch history; asking with one branch returns the other *)
Example C10_nonvacuous :
  let a := [ mkChange 1 [1] 1 1 [] [dummy_op]; mkChange 2 [1] 2 2 [1] [dummy_op];
             mkChange 3 [2] 1 2 [1] [dummy_op]; mkChange 4 [1] 3 3 [2; 3] [] ] in
  hashes (get_changes a [2]) = [3; 4] /\ hashes (get_changes_impl a [2]) = [3; 4] /\
  hashes (get_changes a [9]) = [1; 2; 3; 4].
Proof. vm_compute. auto. Qed.
