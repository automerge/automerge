(* C04 — Change metadata and heads follow causality.
   Proofs in Crdt/CommitProofs.v; the model is Crdt/Commit.v (a mirror of
   transaction_args / isolate_actor / export / update_history).  [appl] is the list of changes
   the document has applied, [heads] what get_heads returns, [a] the document's actor. *)
From AM Require Import Base.Prelude Base.Order Crdt.Types Crdt.Doc Crdt.QueueProofs Crdt.Commit Crdt.CommitProofs.
Local Open Scope N_scope.

(* the next sequence number of the actor the change is written as *)
Theorem C04_commit_seq_next : forall appl heads a iso m,
  commit_meta appl heads a iso = Ok m ->
  cm_seq m = seq_for_actor appl (cm_actor m) + 1.
Proof. exact commit_seq_next. Qed.

(* ... which is above the seq of every applied change of that actor (C38's invariant
   [seq_bounded]: no applied seq exceeds the number of applied changes of its actor) *)
Theorem C04_commit_seq_above : forall appl heads a iso m,
  commit_meta appl heads a iso = Ok m -> seq_bounded appl ->
  forall c, In c appl -> ch_actor c = cm_actor m -> ch_seq c < cm_seq m.
Proof.
  intros appl heads a iso m H Hb c Hc Ha. rewrite (commit_seq_next _ _ _ _ _ H).
  specialize (Hb c Hc). rewrite Ha in Hb. lia.
Qed.

(* start_op is greater than every op counter of every applied change, isolated or not (the
   code takes the maximum over ALL applied changes, also for an isolated transaction) *)
Theorem C04_commit_start_op_gt_all : forall appl heads a iso m,
  commit_meta appl heads a iso = Ok m ->
  1 <= cm_start m /\
  forall c, In c appl -> max_op c < cm_start m /\
    forall i, (i < length (ch_ops c))%nat -> ch_start c + N.of_nat i < cm_start m.
Proof. exact commit_start_op_gt_all. Qed.

(* not isolated: written as the document's actor; dependencies = the current heads plus the
   actor's own previous change, sorted, without duplicates *)
Theorem C04_commit_deps_nonisolated : forall appl heads a m,
  commit_meta appl heads a None = Ok m -> incl heads (hashes appl) ->
  cm_actor m = a /\ sorted N.compare (cm_deps m) /\
  (NoDup heads -> NoDup (cm_deps m)) /\
  forall h, In h (cm_deps m) <->
    In h heads \/ exists p, prev_change appl a = Some p /\ h = ch_hash p.
Proof. exact commit_deps_nonisolated. Qed.

(* isolated at [hs]: dependencies = [hs] (sorted); the actor is the first concurrency level
   of the document's actor that has no change or whose LATEST change (its seq is the number of
   its applied changes) is among the ancestors of [hs]; every lower level was rejected because
   its latest change is not *)
Theorem C04_commit_deps_isolated : forall appl heads a hs m,
  commit_meta appl heads a (Some hs) = Ok m ->
  cm_deps m = sortN (filter (has_hash appl) hs) /\
  (incl hs (hashes appl) -> forall h, In h (cm_deps m) <-> In h hs) /\
  exists j, cm_actor m = level_actor a j /\
    (seq_for_actor appl (cm_actor m) = 0 \/
     seq_clock_at appl hs (cm_actor m) = seq_for_actor appl (cm_actor m)) /\
    forall k, k < j ->
      seq_for_actor appl (level_actor a k) <> 0 /\
      seq_clock_at appl hs (level_actor a k) <> seq_for_actor appl (level_actor a k).
Proof. exact commit_deps_isolated. Qed.

(* the previous change of the actor an isolated transaction writes as is ALWAYS an ancestor of
   the isolation heads ([SeqIdx]: seq_index positions are seq - 1, asserted by the code and an
   invariant of the machine, C04_chain_invariant) *)
Theorem C04_isolated_prev_is_ancestor : forall appl heads a hs m p,
  commit_meta appl heads a (Some hs) = Ok m ->
  SeqIdx appl (cm_actor m) -> prev_change appl (cm_actor m) = Some p ->
  In p (ancestors appl hs).
Proof. exact isolated_prev_is_ancestor. Qed.

(* every created change - plain, empty or isolated - has the next seq of its actor and descends
   from that actor's previous change *)
Theorem C04_commit_continues_chain : forall appl a iso m h ops,
  Built appl -> (forall a, SeqIdx appl a) ->
  commit_meta appl (heads_of appl) a iso = Ok m ->
  chain_ok_new appl (mkChange h (cm_actor m) (cm_seq m) (cm_start m) (cm_deps m) ops).
Proof. exact commit_chain_ok. Qed.

(* so each actor's applied changes form a chain under the ancestor relation in every state
   reached from the empty document by commits and by deliveries of changes that continue their
   actor's chain ([run_chain_ok]: next seq - else the code panics - and descending from the
   previous change, as every library-created change does) *)
Theorem C04_chain_invariant : forall steps m,
  run_fresh m_empty steps -> run_chain_ok m_empty steps -> m_run m_empty steps = Ok m ->
  AChain (applied (m_doc m)).
Proof. intros steps m Hf Hok H. exact (chain_invariant steps m_empty m MInv_empty AChain_nil Hf Hok H). Qed.

(* heads, as an invariant of every step: after ANY sequence of deliveries (apply_changes, merge,
   load, sync: [SReceive]) and local commits (plain, empty, isolated: [SCommit]) from the empty
   document, the incrementally maintained heads (heads - deps + hash at every applied change)
   are exactly the applied changes no applied change depends on, and the applied changes are
   dependency-closed.  [run_fresh]: a created change never gets the hash of a change the
   document already holds (content addressing). *)
Theorem C04_heads_invariant : forall steps m,
  run_fresh m_empty steps -> m_run m_empty steps = Ok m ->
  m_get_heads m = heads_of (applied (m_doc m)) /\
  dep_closed (applied (m_doc m)) /\
  forall h, In h (m_get_heads m) <->
    (exists c, In c (applied (m_doc m)) /\ ch_hash c = h) /\
    (forall c, In c (applied (m_doc m)) -> ~ In h (ch_deps c)).
Proof.
  intros steps m Hf H. pose proof (MInv_run steps m_empty m MInv_empty Hf H) as Hi.
  split; [apply MInv_heads; exact Hi|]. split; [apply Built_closed; exact (proj1 Hi)|].
  intros h. rewrite (MInv_heads m Hi). apply heads_spec.
Qed.

(* every change a document creates, in any reachable state *)
Theorem C04_created_change : forall m r m' c,
  MInv m -> step_fresh m (SCommit r) -> m_commit m r = Ok (m', Some c) ->
  let appl := applied (m_doc m) in
  ch_hash c = cr_hash r /\ ch_ops c = cr_ops r /\
  ch_seq c = seq_for_actor appl (ch_actor c) + 1 /\
  (forall x, In x appl -> max_op x < ch_start c) /\
  (forall h, In h (ch_deps c) -> In h (hashes appl)) /\
  match cr_iso r with
  | None => ch_actor c = cr_actor r /\
            forall h, In h (ch_deps c) <->
              In h (heads_of appl) \/ exists p, prev_change appl (cr_actor r) = Some p /\ h = ch_hash p
  | Some hs => ch_deps c = sortN (filter (has_hash appl) hs)
  end /\
  applied (m_doc m') = appl ++ [c] /\
  m_get_heads m' = heads_of (appl ++ [c]).
Proof. exact created_change_meta. Qed.

Theorem C04_invariant_reachable : forall steps m,
  run_fresh m_empty steps -> m_run m_empty steps = Ok m -> MInv m.
Proof. intros steps m Hf H. exact (MInv_run steps m_empty m MInv_empty Hf H). Qed.

(* non-vacuity: a run with two actors, a merge-like delivery, an empty change and an isolated
   commit; its heads are the two concurrent tips *)
Example C04_nonvacuous :
  let c1 := mkChange 11 [1] 1 1 [] [dummy_op] in
  let steps := [ SCommit (mkReq [2] None [dummy_op] false 21);
                 SReceive [c1];
                 SCommit (mkReq [2] None [] true 22);
                 SCommit (mkReq [2] (Some [21]) [dummy_op; dummy_op] false 23) ] in
  exists m, m_run m_empty steps = Ok m /\ run_fresh m_empty steps /\
    m_get_heads m = [22; 23] /\ length (applied (m_doc m)) = 4%nat.
Proof.
  eexists. split; [vm_compute; reflexivity|]. split; [|split; vm_compute; reflexivity].
  vm_compute. intuition discriminate.
Qed.

(* non-vacuity of C04_isolated_prev_is_ancestor: actor [1] made two changes, [2] a concurrent
   one; a transaction isolated at actor [1]'s latest change is written by [1]; isolated at its
   FIRST change it is written by the concurrency-level actor instead *)
Example C04_isolated_prev_nonvacuous :
  let appl := [ mkChange 1 [1] 1 1 [] [dummy_op]; mkChange 2 [1] 2 2 [1] [];
                mkChange 3 [2] 1 2 [1] [dummy_op; dummy_op] ] in
  (exists m p, commit_meta appl (heads_of appl) [1] (Some [2]) = Ok m /\ (cm_actor m = [1]) /\ (cm_seq m = 3) /\
    (cm_start m = 4) /\ (cm_deps m = [2]) /\
    SeqIdx appl (cm_actor m) /\ prev_change appl (cm_actor m) = Some p) /\
  (exists m, commit_meta appl (heads_of appl) [1] (Some [1]) = Ok m /\
    cm_actor m = with_concurrency [1] 1 /\ (cm_seq m = 1) /\ (cm_deps m = [1])).
Proof.
  split.
  - eexists. eexists. split; [vm_compute; reflexivity|]. cbn [cm_actor cm_seq cm_start cm_deps].
    split; [reflexivity|]. split; [reflexivity|]. split; [reflexivity|]. split; [reflexivity|].
    split; [|vm_compute; reflexivity].
    intros i c. vm_compute. destruct i as [|[|[|i]]]; intros H; inversion H; subst; vm_compute; reflexivity.
  - eexists. split; [vm_compute; reflexivity|]. cbn [cm_actor cm_seq cm_deps]. auto.
Qed.
