(* C35 — Hexane encodings round-trip and reject bad data safely.
   Models in Hexane/{Hleb,Rle,BoolCol,Delta}.v.  The statements are instances of the theorems of
   Hexane/{Hleb,Runs,Rle,BoolCol,Delta}Proofs.v and Hexane/DeltaAccept.v, over the abstract value codec there, or follow
   from them in a few lines.

   A column is represented by its run list [(count, Some v | None)] ([expand] gives the
   values) because a dozen bytes can declare 2^64 - 1 items.  [rle_load V eqb dec nullable]
   is `Column::<T>::load`, [rle_save V eqb enc] is `Column::<T>::save` of a column holding
   the given values; the four instances are u64 / i64 / String / Vec<u8>, [nullable]
   selects `Option<T>`.  [wf_vals]: every value is in the range of its Rust type, nulls
   only when nullable, fewer than 2^63 values. *)
From AM Require Import Base.Prelude Base.Leb128 Hexane.Hleb Hexane.HlebProofs Hexane.Rle Hexane.RleProofs
  Hexane.BoolCol Hexane.BoolColProofs Hexane.Delta Hexane.DeltaProofs Hexane.DeltaAccept.
Local Open Scope N_scope.

(* 1. save then load gives the same values: per column type *)
Theorem C35_u64_load_save : forall (nullable : bool) (l : list (option N)),
  wf_vals N nullable wf_u64 l ->
  rle_load_vals N N.eqb u64_dec nullable (u64_save l) = Ok l.
Proof.
  intros. apply (rle_load_vals_save N N.eqb u64_enc u64_dec nullable wf_u64
    N.eqb_eq u64_dec_enc u64_enc_nonempty); assumption.
Qed.

Theorem C35_i64_load_save : forall (nullable : bool) (l : list (option Z)),
  wf_vals Z nullable wf_i64 l ->
  rle_load_vals Z Z.eqb i64_dec nullable (i64_save l) = Ok l.
Proof.
  intros. apply (rle_load_vals_save Z Z.eqb i64_enc i64_dec nullable wf_i64
    Z.eqb_eq i64_dec_enc i64_enc_nonempty); assumption.
Qed.

Theorem C35_str_load_save : forall (nullable : bool) (l : list (option bytes)),
  wf_vals bytes nullable wf_str l ->
  rle_load_vals bytes bytes_eqb str_dec nullable (str_save l) = Ok l.
Proof.
  intros. apply (rle_load_vals_save bytes bytes_eqb str_enc str_dec nullable wf_str
    bytes_eqb_spec str_dec_enc str_enc_nonempty); assumption.
Qed.

Theorem C35_blob_load_save : forall (nullable : bool) (l : list (option bytes)),
  wf_vals bytes nullable wf_blob l ->
  rle_load_vals bytes bytes_eqb blob_dec nullable (blob_save l) = Ok l.
Proof.
  intros. apply (rle_load_vals_save bytes bytes_eqb blob_enc blob_dec nullable wf_blob
    bytes_eqb_spec blob_dec_enc blob_enc_nonempty); assumption.
Qed.

(* ... and the loaded column is, run for run, the canonical run list of the values *)
Theorem C35_u64_load_save_runs : forall (nullable : bool) (l : list (option N)),
  wf_vals N nullable wf_u64 l ->
  u64_load nullable (u64_save l) = Ok (group N N.eqb l).
Proof.
  intros. apply (rle_load_save N N.eqb u64_enc u64_dec nullable wf_u64
    N.eqb_eq u64_dec_enc u64_enc_nonempty); assumption.
Qed.

(* 2. a column that loads saves back to bytes that load to the same column, for ALL bytes
   (over-long varints included: the loaded runs, not the bytes, determine the re-encoding) *)
Theorem C35_u64_resave : forall nullable (b : bytes) rs,
  wf_bytes b -> u64_load nullable b = Ok rs ->
  u64_load nullable (u64_save (expand N rs)) = Ok rs.
Proof.
  intros nullable b rs. apply (rle_resave N N.eqb u64_enc u64_dec nullable wf_u64
    N.eqb_eq u64_dec_enc u64_enc_nonempty u64_dec_wf).
Qed.
Theorem C35_i64_resave : forall nullable (b : bytes) rs,
  wf_bytes b -> i64_load nullable b = Ok rs ->
  i64_load nullable (i64_save (expand Z rs)) = Ok rs.
Proof.
  intros nullable b rs. apply (rle_resave Z Z.eqb i64_enc i64_dec nullable wf_i64
    Z.eqb_eq i64_dec_enc i64_enc_nonempty i64_dec_wf).
Qed.
Theorem C35_str_resave : forall nullable (b : bytes) rs,
  wf_bytes b -> str_load nullable b = Ok rs ->
  str_load nullable (str_save (expand bytes rs)) = Ok rs.
Proof.
  intros nullable b rs. apply (rle_resave bytes bytes_eqb str_enc str_dec nullable wf_str
    bytes_eqb_spec str_dec_enc str_enc_nonempty str_dec_wf).
Qed.
Theorem C35_blob_resave : forall nullable (b : bytes) rs,
  wf_bytes b -> blob_load nullable b = Ok rs ->
  blob_load nullable (blob_save (expand bytes rs)) = Ok rs.
Proof.
  intros nullable b rs. apply (rle_resave bytes bytes_eqb blob_enc blob_dec nullable wf_blob
    bytes_eqb_spec blob_dec_enc blob_enc_nonempty blob_dec_wf).
Qed.

(* 3. canonicity at run level: bytes that load parse (with whatever varint spellings) into
   exactly the canonical segment list of the loaded values; the loaded run list is the
   maximal-run grouping of its own values.  Stated for the abstract codec, then u64. *)
Theorem C35_rle_load_canonical :
  forall (V : Type) (veqb : V -> V -> bool) (enc : V -> bytes) (dec : bytes -> option (V * bytes))
         (nullable : bool) (wfv : V -> Prop),
  (forall a b, veqb a b = true <-> a = b) ->
  (forall v r, wfv v -> dec (enc v ++ r) = Some (v, r)) ->
  (forall v, enc v <> []) ->
  (forall b v r, wf_bytes b -> dec b = Some (v, r) -> wfv v /\ wf_bytes r) ->
  forall (b : bytes) rs, wf_bytes b -> rle_load V veqb dec nullable b = Ok rs ->
    raw_parse V dec (S (length b)) 0 b = (segs_aux V false rs, TEnd) /\
    group V veqb (expand V rs) = rs.
Proof.
  intros V veqb enc dec nullable wfv Heq Hde Hne Hwf b rs Hb H.
  destruct (rle_load_canonical V veqb dec nullable wfv Heq Hwf b rs Hb H) as (E & _ & C).
  split; [exact E|exact (group_expand V veqb nullable Heq rs None C)].
Qed.

Theorem C35_u64_load_canonical : forall nullable (b : bytes) rs,
  wf_bytes b -> u64_load nullable b = Ok rs ->
  raw_parse N u64_dec (S (length b)) 0 b = (segs_aux N false rs, TEnd) /\
  group N N.eqb (expand N rs) = rs.
Proof.
  intros nullable b rs. apply (C35_rle_load_canonical N N.eqb u64_enc u64_dec nullable wf_u64 N.eqb_eq u64_dec_enc u64_enc_nonempty u64_dec_wf).
Qed.

(* 4. loading arbitrary bytes never panics (as of /repo a623e02f7 and 1187ab90a: i64::MIN literal headers
   and item counts of 2^64 and more are BadFormat errors).  Over the abstract codec, hence
   for u64 / i64 / String / Vec<u8>, nullable or not. *)
Theorem C35_load_never_panics :
  forall (V : Type) (veqb : V -> V -> bool) (dec : bytes -> option (V * bytes)) (nullable : bool) (b : bytes),
  rle_load V veqb dec nullable b <> Panic.
Proof. intros V veqb dec nullable b. exact (rle_load_no_panic V veqb dec nullable b). Qed.

(* the inputs that used to panic are now rejected *)
Example C35_former_panics_rejected :
  u64_load false [128;128;128;128;128;128;128;128;128;127] = Err /\
  u64_load true [0;255;255;255;255;255;255;255;255;255;1;2;5] = Err /\
  u64_load true [0;255;255;255;255;255;255;255;255;255;1] = Err /\
  u64_load true [0;254;255;255;255;255;255;255;255;255;1] = Ok [(18446744073709551614, None)].
Proof. repeat split; vm_compute; reflexivity. Qed.

Theorem C35_i64_load_canonical : forall nullable (b : bytes) rs,
  wf_bytes b -> i64_load nullable b = Ok rs ->
  raw_parse Z i64_dec (S (length b)) 0 b = (segs_aux Z false rs, TEnd) /\
  group Z Z.eqb (expand Z rs) = rs.
Proof.
  intros nullable b rs. apply (C35_rle_load_canonical Z Z.eqb i64_enc i64_dec nullable wf_i64 Z.eqb_eq i64_dec_enc i64_enc_nonempty i64_dec_wf).
Qed.
Theorem C35_str_load_canonical : forall nullable (b : bytes) rs,
  wf_bytes b -> str_load nullable b = Ok rs ->
  raw_parse bytes str_dec (S (length b)) 0 b = (segs_aux bytes false rs, TEnd) /\
  group bytes bytes_eqb (expand bytes rs) = rs.
Proof.
  intros nullable b rs. apply (C35_rle_load_canonical bytes bytes_eqb str_enc str_dec nullable wf_str bytes_eqb_spec str_dec_enc str_enc_nonempty str_dec_wf).
Qed.
Theorem C35_blob_load_canonical : forall nullable (b : bytes) rs,
  wf_bytes b -> blob_load nullable b = Ok rs ->
  raw_parse bytes blob_dec (S (length b)) 0 b = (segs_aux bytes false rs, TEnd) /\
  group bytes bytes_eqb (expand bytes rs) = rs.
Proof.
  intros nullable b rs. apply (C35_rle_load_canonical bytes bytes_eqb blob_enc blob_dec nullable wf_blob bytes_eqb_spec blob_dec_enc blob_enc_nonempty blob_dec_wf).
Qed.

(* 5. boolean columns: the same four statements *)
Theorem C35_bool_load_save : forall l : list bool,
  N.of_nat (length l) < pow64 -> bool_load_vals (bool_save l) = Ok l.
Proof.
  intros l H. unfold bool_load_vals. rewrite bool_load_save by exact H. cbn [bind].
  f_equal. exact (exp_grp _ _ Bool.eqb_true_iff l).
Qed.

Theorem C35_bool_resave : forall (b : bytes) rs,
  wf_bytes b -> bool_load b = Ok rs -> bool_load (bool_save (bexpand rs)) = Ok rs.
Proof.
  intros b rs Hwf H. unfold bool_save. rewrite (bool_load_group b rs Hwf H).
  destruct (bool_load_canonical b rs Hwf H) as (_ & Ha & Hs). exact (bool_load_runs rs Ha Hs).
Qed.

Theorem C35_bool_load_canonical : forall (b : bytes) rs,
  wf_bytes b -> bool_load b = Ok rs ->
  bool_raw (S (length b)) true b = (bcounts_of_runs rs, BEnd) /\ bgroup (bexpand rs) = rs.
Proof.
  intros b rs Hwf H. split.
  - destruct (bool_load_canonical b rs Hwf H) as (E & _ & _). exact E.
  - exact (bool_load_group b rs Hwf H).
Qed.

Theorem C35_bool_load_never_panics : forall b : bytes, bool_load b <> Panic.
Proof. exact bool_load_no_panic. Qed.

(* 6. delta columns.  [lo],[hi]: the i64 domain of the element type (i64: the whole range;
   u64: 0 .. i64::MAX).  The delta loader accepts a subset of the i64 RLE loader with the
   same runs, so canonical form transfers; re-save is proved for all bytes.  Save then load:
   proved for every value list inside a window [wlo, whi] that contains 0, is at most
   2^63 - 1 wide and lies inside the domain -- for u64 / Option<u64> columns that is every
   list the type can hold (C35_delta_u64_load_save).  hexane's documented contract for signed
   columns (any 2^63-wide window, 0 not necessarily inside) is wider: outside the window
   hypothesis only the second half is proved (C35_delta_load_save_partial: IF the loader
   accepts the writer's output THEN it holds the same values). *)
Theorem C35_delta_load_save : forall (nullable : bool) (lo hi wlo whi : Z) (vs : list (option Z)),
  (lo <= wlo)%Z -> (whi <= hi)%Z -> (i64_min <= wlo)%Z -> (whi <= i64_max)%Z ->
  (wlo <= 0 <= whi)%Z -> (whi - wlo <= i64_max)%Z ->
  delta_dom nullable wlo whi vs ->
  delta_load_vals nullable lo hi (delta_save vs) = Ok vs.
Proof. intros. eapply delta_load_vals_save; eauto. Qed.

Theorem C35_delta_u64_load_save : forall (nullable : bool) (vs : list (option Z)),
  delta_dom nullable 0 i64_max vs ->
  delta_load_vals nullable 0 i64_max (delta_save vs) = Ok vs.
Proof.
  intros nullable vs H. apply (delta_load_vals_save nullable 0 i64_max 0 i64_max);
    rewrite ?i64_min_val, ?i64_max_val; try lia. exact H.
Qed.

Theorem C35_delta_load_is_rle_load : forall nullable lo hi (b : bytes) rs,
  delta_load nullable lo hi b = Ok rs -> i64_load nullable b = Ok rs.
Proof. exact delta_load_rle. Qed.

Theorem C35_delta_load_never_panics : forall nullable lo hi (b : bytes),
  delta_load nullable lo hi b <> Panic.
Proof. exact delta_load_no_panic. Qed.

Example C35_delta_former_panic_rejected :
  delta_load false i64_min i64_max
    [255;255;255;255;255;255;255;255;255;0;0; 255;255;255;255;255;255;255;255;255;0;1; 2;0] = Err.
Proof. vm_compute. reflexivity. Qed.

Theorem C35_delta_resave : forall nullable lo hi (b : bytes) rs,
  wf_bytes b -> delta_load nullable lo hi b = Ok rs ->
  delta_load nullable lo hi (delta_save (realize 0 (expand Z rs))) = Ok rs.
Proof.
  intros nullable lo hi b rs Hwf H. pose proof (delta_load_rle nullable lo hi b rs H) as Hr.
  unfold delta_save. rewrite deltas_realize. unfold delta_load, i64_save.
  rewrite (resave_parse Z Z.eqb i64_enc i64_dec nullable wf_i64
             Z.eqb_eq i64_dec_enc i64_enc_nonempty i64_dec_wf b rs Hwf Hr).
  exact H.
Qed.

Theorem C35_delta_load_save_partial : forall nullable lo hi (vs : list (option Z)) rs,
  wf_vals Z nullable wf_i64 (deltas 0 vs) ->
  delta_load nullable lo hi (delta_save vs) = Ok rs ->
  rs = group Z Z.eqb (deltas 0 vs) /\ realize 0 (expand Z rs) = vs.
Proof.
  intros nullable lo hi vs rs Hwf H. apply delta_load_rle in H. unfold delta_save, i64_save, i64_load in H.
  rewrite (rle_load_save Z Z.eqb i64_enc i64_dec nullable wf_i64
             Z.eqb_eq i64_dec_enc i64_enc_nonempty _ Hwf) in H.
  injection H as <-. split; [reflexivity|].
  rewrite (expand_group Z Z.eqb Z.eqb_eq). apply realize_deltas.
Qed.

(* 7. the varints under all of it: hexane's writers against the leb128 crate's readers *)
Theorem C35_varint_unsigned_roundtrip : forall n rest,
  n < pow64 -> hleb_u (hleb_uenc n ++ rest) = Some (n, rest).
Proof. exact hleb_u_roundtrip. Qed.
Theorem C35_varint_signed_roundtrip : forall z rest,
  in_i64 z -> hleb_s (hleb_senc z ++ rest) = Some (z, rest).
Proof. exact hleb_s_roundtrip. Qed.

(* non-vacuity *)
Example C35_u64_load_save_nonvacuous :
  wf_vals N true wf_u64 [Some 1; Some 1; Some 2; None; None; Some 18446744073709551615] /\
  u64_save [Some 1; Some 1; Some 2; None; None; Some 18446744073709551615]
    = [2;1;127;2;0;2;127;255;255;255;255;255;255;255;255;255;1].
Proof.
  split; [|vm_compute; reflexivity]. split.
  - repeat constructor; unfold wf_u64; rewrite ?pow64_val; lia.
  - cbn. rewrite pow63_val. lia.
Qed.
Example C35_u64_resave_nonvacuous :
  u64_load false [130;0;133;0] = Ok [(2, Some 5)] /\ u64_save (expand N [(2, Some 5)]) = [2;5].
Proof. split; vm_compute; reflexivity. Qed.
Example C35_bool_nonvacuous :
  bool_save [true; true; false] = [0;2;1] /\ bool_load [0;2;1] = Ok [(2, true); (1, false)].
Proof. split; vm_compute; reflexivity. Qed.
Example C35_delta_nonvacuous :
  delta_save [Some 100%Z; Some 101%Z; Some 102%Z; None; Some 200%Z] = [127;228;0;2;1;0;1;127;226;0] /\
  delta_load_vals true 0 9223372036854775807 [127;228;0;2;1;0;1;127;226;0]
    = Ok [Some 100%Z; Some 101%Z; Some 102%Z; None; Some 200%Z].
Proof. split; vm_compute; reflexivity. Qed.
Example C35_delta_load_save_nonvacuous :
  delta_dom true 0 i64_max [Some 100%Z; Some 101%Z; None; Some 9223372036854775807%Z; Some 0%Z].
Proof.
  unfold delta_dom. rewrite i64_max_val. split; [|split].
  - repeat constructor; unfold win; cbn; lia.
  - repeat constructor; auto; discriminate.
  - cbn. rewrite pow63_val. lia.
Qed.
