(* C21 — Multi-peer sync converges across disconnects.
   Proofs in Sync/ProtoProofs.v, or a few lines over its [gen_eq] and [rcv_inv].  The per-link safety facts are those of C20. *)
From AM Require Import Base.Prelude Base.Order Gen.Consts Crdt.Types Crdt.Doc Crdt.QueueProofs Sync.Proto Sync.ProtoProofs.
Local Open Scope N_scope.

(* State::decode (State::encode s) keeps the shared heads and nothing else of the session *)
Theorem C21_decode_encode_state_resets_session :
  forall (B : Type) (s0 : sync_state B),
    persist s0 = mkSS (shared_heads s0) [] None None (Some []) [] false false None false false false.
Proof. exact decode_encode_state_resets_session. Qed.

(* no reconnected peer waits silently: a fresh state and a restored state always produce a message that
   announces the current heads, whatever the document *)
Theorem C21_fresh_state_speaks :
  forall (B : Type) (b_make : list N -> B) (b_query : B -> N -> bool) (d : doc),
    exists s' m, generate_sync_message b_make b_query d fresh_state = (s', Some m) /\
                 m_heads m = heads_of (applied d) /\ m_changes m = None /\
                 in_flight s' = true /\ have_responded s' = true.
Proof.
  intros B b_make b_query d. eexists. eexists. split.
  { rewrite (gen_eq B b_make b_query d fresh_state empty_builder eq_refl), quiet_unanswered; reflexivity. }
  cbn. auto.
Qed.

Theorem C21_persisted_state_speaks :
  forall (B : Type) (b_make : list N -> B) (b_query : B -> N -> bool) (d : doc) (s0 : sync_state B),
    exists s' m, generate_sync_message b_make b_query d (persist s0) = (s', Some m) /\
                 m_heads m = heads_of (applied d) /\ m_changes m = None /\
                 in_flight s' = true /\ have_responded s' = true /\
                 shared_heads s' = shared_heads s0 /\ sent_hashes s' = [].
Proof.
  intros B b_make b_query d s0. eexists. eexists. split.
  { rewrite (gen_eq B b_make b_query d (persist s0) empty_builder eq_refl), quiet_unanswered; reflexivity. }
  cbn. auto 10.
Qed.

(* a peer restored with MORE shared heads than the other side still has (the other side lost data) is told
   so: the other side answers with a reset message and keeps its state ... *)
Theorem C21_reset_when_last_sync_unknown :
  forall (B : Type) (b_make : list N -> B) (b_query : B -> N -> bool) (d : doc) (s : sync_state B) h rest x,
    their_have s = Some (h :: rest) -> In x (hv_last_sync h) -> has_hash (applied d) x = false ->
    generate_sync_message b_make b_query d s = (s, Some (reset_message b_make (heads_of (applied d)))).
Proof. exact reset_when_last_sync_unknown. Qed.

(* ... and whoever receives a reset message forgets last_sync for that peer (it will offer everything) *)
Theorem C21_reset_message_received :
  forall (B : Type) (b_make : list N -> B) (d : doc) (s : sync_state B) hs d' s',
    receive_sync_message d s (reset_message b_make hs) = Ok (d', s') ->
    d' = d /\ their_have s' = Some [mkHave [] (b_make [])] /\ their_need s' = Some [] /\
    their_heads s' = Some hs /\ in_flight s' = false.
Proof.
  intros B b_make d s hs d' s' H.
  destruct (rcv_inv B d s _ d' s' H) as [[->|(cs & Em & _)] (sh & ls & caps & ->)]; [cbn; auto|discriminate Em].
Qed.

(* receiving on any link never loses changes and only adds what the message carries *)
Theorem C21_sync_only_adds_peer_changes :
  forall (B : Type) (d : doc) (s : sync_state B) (m : message B) d' s',
    receive_sync_message d s m = Ok (d', s') ->
    incl (applied d ++ queue d) (applied d' ++ queue d') /\
    forall c, In c (applied d' ++ queue d') -> In c (applied d ++ queue d) \/ In c (msg_changes m).
Proof. exact sync_only_adds_peer_changes. Qed.

Definition ex_c1 : change := mkChange 11 [1] 1 1 [] [].
Example C21_reset_nonvacuous :
  exists s m, generate_sync_message (fun l : list N => l) (fun l h => memN h l) (mkDoc [ex_c1] [])
      (mkSS [] [] (Some [99]) (Some []) (Some [mkHave [99] []]) [] false true None false false false) = (s, Some m)
    /\ m_have m = [mkHave [] []] /\ m_heads m = [11] /\ in_flight s = false.
Proof. eexists. eexists. split; [vm_compute; reflexivity|]. cbn. auto. Qed.

Example C21_reset_message_received_nonvacuous :
  exists s', receive_sync_message (mkDoc [ex_c1] [])
      (mkSS [11] [11] (Some [11]) (Some []) (Some []) [11] true true None false false false)
      (reset_message (fun l : list N => l) []) = Ok (mkDoc [ex_c1] [], s') /\
    sent_hashes s' = [] /\ last_sent_heads s' = [] /\ shared_heads s' = [].
Proof. eexists. split; [vm_compute; reflexivity|]. repeat split. Qed.
