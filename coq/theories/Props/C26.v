(* C26 — Cursors track their element through edits.
   Statements only; proofs in Crdt/CursorProofs.v.  [oops] is the set of operations of one list or
   text object (ascending id) — of the current document or of the document at historical heads;
   the width of a visible element is a parameter (1 in lists, the width of its character in the
   document's text encoding in texts).  The model (Crdt/Cursor.v) mirrors get_cursor_for /
   get_cursor_position_for / seek_list_opid. *)
From AM Require Import Base.Prelude Base.Order Crdt.Types Crdt.Interp Crdt.Cursor Crdt.CursorProofs.
Local Open Scope N_scope.

(* get_cursor_position(get_cursor(i)) = i, whatever the move mode (lists) *)
Theorem C26_fresh_cursor : forall oops i c mode,
  NoDup (map op_id oops) ->
  cursor_at width_list oops i = Some c ->
  resolve width_list oops mode c = Ok i.
Proof. exact list_fresh_cursor. Qed.

(* MoveCursor::After, in ANY later state that still holds the cursor's op (any further local or merged
   operations): the position is the total width of the visible elements before the cursor's element ... *)
Theorem C26_after_position : forall width oops c o pre post,
  find_op oops c = Some o -> is_inc o = false -> is_del o = false ->
  elem_order oops = pre ++ elem_of o :: post -> ~ In (elem_of o) pre ->
  resolve width oops MoveAfter c = Ok (sumN (map (elem_width width oops) pre)).
Proof. intros width oops c o pre post. exact (resolve_at width oops MoveAfter c o pre post). Qed.

(* ... which in a list is the element's own index while it is visible, and once it is deleted the index
   of the next surviving element, or the length when none survives *)
Theorem C26_list_after : forall oops c o pre post,
  find_op oops c = Some o -> is_inc o = false -> is_del o = false ->
  elem_order oops = pre ++ elem_of o :: post -> ~ In (elem_of o) pre ->
  exists i, resolve width_list oops MoveAfter c = Ok (N.of_nat i) /\
    i = length (filter (elem_vis oops) pre) /\
    (elem_vis oops (elem_of o) = true -> nth_error (vis_elems oops) i = Some (elem_of o)) /\
    (elem_vis oops (elem_of o) = false ->
       nth_error (vis_elems oops) i = hd_error (filter (elem_vis oops) post) /\
       (filter (elem_vis oops) post = [] -> i = length (vis_elems oops))).
Proof. exact list_cursor_after. Qed.

(* MoveCursor::Before: the same position while the element is visible (whichever of its ops wins) ... *)
Theorem C26_before_visible : forall width oops c o pre post,
  find_op oops c = Some o -> is_inc o = false -> is_del o = false ->
  elem_order oops = pre ++ elem_of o :: post -> ~ In (elem_of o) pre ->
  elem_vis oops (elem_of o) = true ->
  resolve width oops MoveBefore c = Ok (sumN (map (elem_width width oops) pre)).
Proof.
  intros width oops c o pre post Hf Hi Hd Ho Hn Hv.
  rewrite (resolve_at width oops MoveBefore c o pre post Hf Hi Hd Ho Hn), Hv. reflexivity.
Qed.

(* ... and once it is deleted, the position of the nearest surviving predecessor along the insertion
   chain ([chain_to]), or 0 *)
Theorem C26_before_deleted : forall width oops c o pre post i,
  find_op oops c = Some o -> is_inc o = false -> is_del o = false ->
  elem_order oops = pre ++ elem_of o :: post -> ~ In (elem_of o) pre ->
  elem_vis oops (elem_of o) = false ->
  resolve width oops MoveBefore c = Ok i ->
  (sumN (map (elem_width width oops) pre) = 0 /\ i = 0) \/
  exists r, chain_to width oops (if op_insert o then ref_of o else elem_of o) r /\
            match r with None => i = 0 | Some a => index_of width oops a = Some i end.
Proof. exact resolve_before_hidden. Qed.

(* a cursor whose op the document does not hold is rejected *)
Theorem C26_unknown_cursor : forall width oops mode c,
  find_op oops c = None -> resolve width oops mode c = Err.
Proof. exact resolve_unknown. Qed.
