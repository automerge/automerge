(* C07 — Historical reads equal reads of the document as it was.
   Proofs in Crdt/ClockProofs.v. *)
From AM Require Import Base.Prelude Base.Order Crdt.Types Crdt.Interp Crdt.Doc Exec.HistExec Crdt.ClockProofs.
Local Open Scope N_scope.

(* the per-actor clock of a set of heads covers exactly the operations of their ancestors *)
Theorem C07_covered_iff_ancestor : forall a hs, WFhist a -> forall c o, In c a -> In o (ch_ops c) ->
  (covered (clock_of (ancestors a hs)) (op_id o) = true <-> In c (ancestors a hs)).
Proof. exact covered_iff_ancestor. Qed.

(* every read at heads [hs] (the whole observation: all registers of all objects, conflict
   sets, sequence order, counters) equals the read of a document holding exactly the
   ancestors of [hs] — which is what fork_at(hs) builds *)
Theorem C07_obs_at_eq_restrict : forall a hs, WFhist a ->
  obs_at a hs = observe (all_ops (ancestors a hs)).
Proof. exact obs_at_eq_restrict. Qed.

(* the document restricted to the ancestors is causally closed and contains the given heads *)
Theorem C07_ancestors_closed : forall a hs, WFhist a ->
  forall c, In c (ancestors a hs) -> forall h, In h (ch_deps c) ->
  exists c', In c' (ancestors a hs) /\ ch_hash c' = h.
Proof.
  intros a hs W c Hc h Hh.
  destruct (Topo_dep_in a c h (wf_topo a W) (ancestors_incl a hs c Hc) Hh) as [c' [Hc' E]].
  exists c'. split; [|exact E]. apply (ancestors_dep a (wf_nodup a W) (wf_topo a W) hs c' c Hc Hc'). rewrite E. exact Hh.
Qed.

Theorem C07_ancestors_heads : forall a hs c, WFhist a -> In c a -> In (ch_hash c) hs -> In c (ancestors a hs).
Proof. intros a hs c _. apply ancestors_heads. Qed.

(* the well-formedness premise is decidable and is checked on every generated history *)
Theorem C07_wf_checker_sound : forall a, wf_hist_b a = true -> WFhist a.
Proof. exact wf_hist_b_sound. Qed.
