(* C12 — Incremental saves and loads compose.
   Each statement is a theorem of Store/ChunkProofs.v or Store/Refeed.v. *)
From AM Require Import Base.Prelude Base.Leb128 Gen.Consts Store.Chunk Store.ChunkProofs.
From AM Require Import Crdt.Types Crdt.Doc Store.Refeed.

(* any concatenation of written chunks (one save followed by incremental saves) loads to the
   changes of all of them, in order, applied to the empty document *)
Theorem C12_concat_loads :
  forall Hsh : bytes -> bytes, (forall x : bytes, 4 <= length (Hsh x)) ->
  forall (C : Type) (body : N -> bytes -> option (list C)) (inflate : bytes -> option bytes)
    (D : Type) (empty : D) (apply : D -> list C -> res D) (queue_empty : D -> bool)
    (x : bytes * list C * N) (l : list (bytes * list C * N)) (m : mode),
  all_written Hsh C body inflate (x :: l) ->
  load Hsh C body inflate D empty apply queue_empty m (flat C (x :: l)) =
    match m with
    | Strict => strict_result C D empty apply queue_empty (snd x) (changes_of C (x :: l))
    | Ignore => apply empty (changes_of C (x :: l))
    end.
Proof. exact load_complete. Qed.

(* load_incremental of the pieces written after some point applies exactly their changes *)
Theorem C12_load_incremental :
  forall Hsh : bytes -> bytes, (forall x : bytes, 4 <= length (Hsh x)) ->
  forall (C : Type) (body : N -> bytes -> option (list C)) (inflate : bytes -> option bytes)
    (D : Type) (empty : D) (apply : D -> list C -> res D) (queue_empty is_empty : D -> bool)
    (d : D) (l : stored C),
  is_empty d = false -> all_written Hsh C body inflate l ->
  load_incremental Hsh C body inflate D empty apply queue_empty is_empty d (flat C l) =
  apply d (changes_of C l).
Proof. exact load_incremental_complete. Qed.

(* the CRDT layer under it: delivering changes the document already holds (applied or held)
   has no further effect — feeding the same pieces again changes nothing *)
Theorem C12_refeed_no_effect : forall (d : doc) (cs : list change) (d' : doc) (cs' : list change),
  receive d cs = Ok d' -> incl cs' cs -> receive d' cs' = Ok d'.
Proof. exact receive_again. Qed.
