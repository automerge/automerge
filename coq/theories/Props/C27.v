(* C27 — Reconciliation and bulk-construction calls reach their target value.
   Model: Crdt/Update.v.
   (1) update_text: the index arithmetic of text_diff.rs's TxHook — ONE running index in the units of the text
   encoding, advanced by equal / insert / replace, used as the position of every splice_text — for an ARBITRARY
   hook script (the Myers search of text_diff/myers.rs is not modelled: spec-level).  [wf_script old new s] is the
   decidable statement "s tiles old and new, in order" which the family `recon` checks on the script recovered
   from the ops the implementation emitted.
   (2) update_object on lists and maps: update_list / update_map of transaction/inner.rs as they are after fix
   d4866c089, one level of the recursion: the update of one entry (update_value: recursive call on a nested
   object of the same type, or replacement by put / put_object / insert / insert_object + construction) is the
   parameter [upd], assumed to reach its target (the induction hypothesis of the recursion over the value).
   Not proved here (checked directly by the family): update_spans, batch_create_object / init_root_from_hydrate /
   init_from_hydrate / nested splice against call-by-call construction (no C27_batch_create_eq_stepwise). *)
From AM Require Import Base.Prelude Base.Order Crdt.Types Crdt.Interp Crdt.Local Crdt.Update Crdt.UpdateProofs.
Local Open Scope N_scope.

(* every edit script that tiles old and new drives the hook to exactly the new text — in code points, UTF-8 and
   UTF-16 units — without leaving the slices of old / new (no panic) *)
Theorem C27_script_sound : forall e old new s,
  wf_script old new s = true -> apply_script e old new s = Ok (concat new).
Proof. exact script_sound. Qed.

(* ... and the running index ends at the width of the new text *)
Theorem C27_script_final_index : forall e old new s,
  wf_script old new s = true -> run_hooks e old new (0, concat old) s = Ok (gwidth e new, concat new).
Proof. intros e old new s W. apply (run_hooks_sound e old new s 0 0); [split; reflexivity|exact W]. Qed.

(* update_list: whatever the lengths (growing, shrinking, equal), the list ends up as the target *)
Theorem C27_update_list_reaches : forall (V : Type) (upd : option V -> V -> V),
  (forall o n, upd o n = n) -> forall old new, update_list V upd old new = Ok new.
Proof. exact update_list_reaches. Qed.

(* update_map: afterwards every key reads what the target reads (absent keys are absent) *)
Theorem C27_update_map_reaches : forall (V : Type) (upd : option V -> V -> V),
  (forall o n, upd o n = n) -> forall old new k, mlookup V (update_map V upd old new) k = mlookup V new k.
Proof. exact update_map_reaches. Qed.

(* the loop as it was before fix d4866c089 (surplus deleted from the head) missed its target *)
Theorem C27_update_list_head_deletion_refuted :
  exists old new : list N, update_list_before_fix N (fun _ n => n) old new <> Ok new.
Proof. exists [0; 1; 2; 3; 4], [10; 11; 12]. vm_compute. discriminate. Qed.

Example C27_script_nonvacuous :
  (* "ab" + e-acute (one grapheme of two code points) + "d"  ->  "a" + U+1F600 + e-acute + "dz" *)
  let old := [[97]; [98]; [101; 769]; [100]] in
  let new := [[97]; [128512]; [101; 769]; [100]; [122]] in
  let s := [HEqual 0 0 1; HDelete 1 1 1; HInsert 2 1 1; HEqual 2 2 2; HInsert 4 4 1] in
  wf_script old new s = true /\
  run_hooks EncU16 old new (0, concat old) s = Ok (7, [97; 128512; 101; 769; 100; 122]) /\
  run_hooks EncU8 old new (0, concat old) s = Ok (10, [97; 128512; 101; 769; 100; 122]).
Proof. repeat split; vm_compute; reflexivity. Qed.

Example C27_update_list_nonvacuous :
  update_list N (fun _ n => n) [0; 1; 2; 3; 4] [10; 11; 12] = Ok [10; 11; 12] /\
  update_list N (fun _ n => n) [0] [7; 8; 9] = Ok [7; 8; 9].
Proof. split; vm_compute; reflexivity. Qed.

Example C27_update_map_nonvacuous :
  let old := [([97], 1); ([98], 2); ([99], 3)] in
  let new := [([98], 20); ([100], 40)] in
  map (mlookup N (update_map N (fun _ n => n) old new)) [[97]; [98]; [99]; [100]] = [None; Some 20; None; Some 40].
Proof. vm_compute. reflexivity. Qed.
