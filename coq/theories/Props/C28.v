(* C28 — Rollback restores the exact prior document.
   Statements; the proofs are in Crdt/TxnProofs.v and, for the undo log, Crdt/UndoProofs.v (a corollary is derived in place); the model is Crdt/Txn.v (over Crdt/Local.v for
   the editing calls and Crdt/Commit.v for transaction_args).  A document of the model ([tdoc]) is
   the applied changes, the queue, the maintained heads, the actor table and the actor;
   [txn_open] mirrors Automerge::transaction / transaction_at (actor put into the table — every
   concurrency level tried when isolated —, queue pruned, actor / seq / start_op / deps / scope
   fixed), [txn_calls] runs editing calls, [txn_rollback] mirrors TransactionInner::rollback
   (pending ops leave the op set, remove_actor when seq = 1, remove_unused_actors).
   [table_ok]: the actor table is sorted and holds exactly the actors that have changes (the
   state remove_unused_actors establishes after every transaction). *)
From AM Require Import Base.Prelude Base.Order Crdt.Types Crdt.Interp Crdt.Doc Crdt.Local Crdt.Commit
  Crdt.CommitProofs Crdt.Txn Crdt.TxnProofs Crdt.UndoProofs.
From AM Require Exec.TxnExec.
Local Open Scope N_scope.

(* after any editing calls, rollback gives back: the applied changes, the heads, the actor, the
   ACTOR TABLE (it grew when the transaction opened), the op set (the ops it held, so every
   read) — and the queue as the opening of the transaction left it *)
Theorem C28_rollback_restores : forall (d : tdoc) (iso : option (list N)) (o : otx) (e : enc) (cs : list call) (o' : otx),
  table_ok d -> txn_open d iso = Ok o -> txn_calls e o cs = EOk o' ->
  let d' := txn_rollback o' in
  t_applied d' = t_applied d /\ m_heads (t_m d') = m_heads (t_m d) /\
  t_actor d' = t_actor d /\ t_table d' = t_table d /\
  queue (m_doc (t_m d')) =
    remove_actor_branch_from (queue (m_doc (t_m d))) (cm_actor (ot_meta o)) (cm_seq (ot_meta o)) /\
  tx_all (tx_rollback (ot_tx o')) = tx_base (ot_tx o) /\
  observe (tx_all (tx_rollback (ot_tx o'))) = observe (scope_ops (t_applied d) iso (cm_actor (ot_meta o))).
Proof. exact rollback_restores. Qed.

(* when no queued change claims the sequence number the transaction would have used, the
   rolled-back document is EQUAL to the one the transaction started from *)
Theorem C28_rollback_state_equal : forall (d : tdoc) (iso : option (list N)) (o : otx) (e : enc) (cs : list call) (o' : otx),
  table_ok d -> queue_quiet d iso -> txn_open d iso = Ok o -> txn_calls e o cs = EOk o' ->
  txn_rollback o' = d.
Proof. exact rollback_state_equal. Qed.

(* hence the next transaction (plain or isolated at any heads) opens identically and the same
   calls produce the same change: same actor, seq, start_op, deps, ops, for the same hash input *)
Theorem C28_rollback_next_change_same :
  forall (d : tdoc) (iso : option (list N)) (o : otx) (e : enc) (cs : list call) (o' : otx)
         (iso2 : option (list N)) (e2 : enc) (cs2 : list call) (hash : N),
  table_ok d -> queue_quiet d iso -> txn_open d iso = Ok o -> txn_calls e o cs = EOk o' ->
  txn_open (txn_rollback o') iso2 = txn_open d iso2 /\
  forall o2 o2',
    txn_open (txn_rollback o') iso2 = Ok o2 -> txn_calls e2 o2 cs2 = EOk o2' ->
    exists u2 u2', txn_open d iso2 = Ok u2 /\ txn_calls e2 u2 cs2 = EOk u2' /\
                   txn_commit o2' hash = txn_commit u2' hash.
Proof.
  intros d iso o e cs o' iso2 e2 cs2 hash Hok Hq Ho Hc. rewrite (rollback_state_equal d iso o e cs o' Hok Hq Ho Hc).
  split; [reflexivity|]. intros o2 o2' H1 H2. exists o2, o2'. auto.
Qed.

(* the faithful model REFUTES the property without the queue side condition: a queued change of
   the document's own actor that claims the next sequence number is dropped by transaction_args
   when the transaction opens and stays dropped after rollback (get_missing_deps and, with
   retained orphans, save() differ) *)
Theorem C28_rollback_queue_refuted :
  exists d o, table_ok d /\ txn_open d None = Ok o /\ txn_rollback o <> d /\
              queue (m_doc (t_m d)) <> [] /\ queue (m_doc (t_m (txn_rollback o))) = [].
Proof. exact rollback_queue_refuted. Qed.

(* The mechanism, the undo log of the op set.
   [cols]: the index columns a local op rewrites when it adds itself as a successor of the ops it
   supersedes (succ_count, successor ids with their increments, visible, text width, top);
   [add_succ_with_undo] / [undo_succ] mirror OpSet::add_succ_with_undo / undo_succ line by line
   (reverse iteration, succ_inc, the expose / delete flags, out-of-range positions = Panic).
   For the inserts one local op produces — distinct rows (the ops of one register), positions
   inside the columns, [si_len] = the row's successor count ([wf_ins]) — adding succeeds, logs one
   entry per insert and undoing the log restores the columns EXACTLY. *)
Theorem C28_undo_succ_restores : forall (c : cols) (ins : list sins),
  NoDup (map si_pos ins) -> (forall i, In i ins -> wf_ins c i) ->
  exists c' us, add_succ_with_undo c ins = Ok (c', us) /\ length us = length ins /\
                undo_succ c' us = Ok c.
Proof. exact undo_succ_restores. Qed.
Example C28_undo_succ_nonvacuous :
  let c := mkCols [0; 1; 0] [true; true; true] [Some 1; Some 1; Some 1] [false; false; true] [((9, [1]), Some 2%Z)] in
  let ins := [mkSI (12, [2]) 1 (Some 3%Z) 1 1 (Some 1); mkSI (12, [2]) 2 None 0 1 (Some 1)] in
  NoDup (map si_pos ins) /\ (forall i, In i ins -> wf_ins c i) /\
  exists c' us, add_succ_with_undo c ins = Ok (c', us) /\
    c_vis c' = [true; true; false] /\ c_top c' = [false; true; false] /\ c_cnt c' = [0; 2; 1].
Proof.
  cbv zeta. split; [repeat constructor; cbn; intuition discriminate|].
  split; [intros i [<-|[<-|[]]]; unfold wf_ins; cbn; repeat split; try reflexivity; lia|].
  eexists. eexists. split; [vm_compute; reflexivity|]. repeat split.
Qed.

(* non-vacuity: a document with two changes of actor [2]; a plain transaction by the NEW actor
   [1] (sorts first: the table grows at index 0 and shrinks back) doing a put and an insert-free
   delete; an isolated one at the first change *)
Example C28_nonvacuous :
  let op1 := mkOp (1, [2]) root_id (KMap [97]) false (APut (SInt 1)) [] in
  let op2 := mkOp (2, [2]) root_id (KMap [97]) false (APut (SInt 2)) [(1, [2])] in
  let appl := [mkChange 21 [2] 1 1 [] [op1]; mkChange 22 [2] 2 2 [21] [op2]] in
  let d := mkT (mkM (mkDoc appl []) [22]) [[2]] [1] in
  table_ok d /\ queue_quiet d None /\ queue_quiet d (Some [21]) /\
  (exists o o', txn_open d None = Ok o /\ t_table (ot_doc o) = [[1]; [2]] /\
     txn_calls EncCP o [CPut root_id (PMap [98]) (SInt 5); CDelete root_id (PMap [97])] = EOk o' /\
     length (tx_pending (ot_tx o')) = 2%nat /\ txn_rollback o' = d) /\
  (exists o o', txn_open d (Some [21]) = Ok o /\
     txn_calls EncCP o [CPut root_id (PMap [97]) (SInt 7)] = EOk o' /\
     length (tx_pending (ot_tx o')) = 1%nat /\ txn_rollback o' = d).
Proof.
  cbv zeta. split; [apply table_ok_b_sound; reflexivity|].
  split; [intros m _; reflexivity|]. split; [intros m _; reflexivity|]. split.
  - eexists. eexists. split; [vm_compute; reflexivity|]. split; [reflexivity|].
    split; [vm_compute; reflexivity|]. split; reflexivity.
  - eexists. eexists. split; [vm_compute; reflexivity|].
    split; [vm_compute; reflexivity|]. split; reflexivity.
Qed.
