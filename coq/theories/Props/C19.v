(* C19 — Identifiers and sync state serialize losslessly and resolve correctly.
   Statements; proofs in Codec/{HexProofs,ExIdProofs,CursorProofs,SyncProofs}.v (three corollaries are derived in place).  The models
   (Codec/{Hex,ExId,CursorCodec,SyncCodec}.v) mirror exid.rs, cursor.rs, types.rs (hex forms),
   sync.rs / sync/state.rs (Message, State, flags), and the id resolution of automerge.rs
   (import_obj, exid_to_opid, op_cursor_to_opid).  The side conditions are exactly the ranges of
   the Rust types (u64 counters and hints, u8 bytes, 32-byte hashes, sorted hash lists — the
   encoder's own debug assertion —, Bloom filters as the decoder can return them, flag bits
   below the bitfield marker); each is a boolean predicate with a non-vacuity example. *)
From AM Require Import Base.Prelude Base.Order Gen.Consts Codec.Bloom Codec.Hex Codec.ExId
  Codec.CursorCodec Codec.SyncCodec Codec.HexProofs Codec.ExIdProofs Codec.CursorProofs Codec.SyncProofs.
(* not used by the statements: makes `make Props/C19.vo` rebuild the correspondence checkers too *)
From AM Require Exec.IdsExec.
Local Open Scope N_scope.

Theorem C19_exid_roundtrip : forall e : exid,
  wf_exidb e = true -> exid_of_bytes (exid_to_bytes e) = Ok e.
Proof. exact exid_bytes_roundtrip. Qed.
Example C19_exid_roundtrip_nonvacuous : wf_exidb (EId 4294967296 [1; 2; 255] 18446744073709551615) = true.
Proof. reflexivity. Qed.

(* text form "ctr@actorhex": parsed against a replica's actor table t it gives back an id that is
   equal to the original as ExId's equality defines it (counter and actor; the hint is the
   replica's own index for the actor) *)
Theorem C19_exid_string_roundtrip : forall (t : table) (c : N) (a : bytes) (h : N),
  c < pow64 -> wf_bytesb a = true -> In a t ->
  exists e, import_obj t (exid_to_str (EId c a h)) = Ok e /\ exid_eqb e (EId c a h) = true.
Proof.
  intros t c a h Hc Hwa Hin. destruct (find_actor_in t a Hin) as [i Hi].
  exists (EId c a (N.of_nat i)). split; [apply exid_str_roundtrip; assumption|].
  cbn [exid_eqb]. rewrite N.eqb_refl. rewrite (proj2 (bytes_eqb_spec a a) eq_refl). reflexivity.
Qed.
Theorem C19_exid_string_root : forall t : table, import_obj t (exid_to_str ERoot) = Ok ERoot.
Proof. intros t. reflexivity. Qed.
Example C19_exid_string_roundtrip_nonvacuous :
  7 < pow64 /\ wf_bytesb [171; 205] = true /\ In [171; 205] [[1]; [171; 205]].
Proof. split; [reflexivity|]. split; [reflexivity|]. right. left. reflexivity. Qed.

Theorem C19_cursor_bytes_roundtrip : forall c : cursor,
  wf_cursorb c = true -> cursor_of_bytes (cursor_to_bytes c) = Ok c.
Proof. exact cursor_bytes_roundtrip. Qed.
Theorem C19_cursor_string_roundtrip : forall c : cursor,
  wf_cursorb c = true -> cursor_of_str (cursor_to_str c) = Ok c.
Proof. exact cursor_str_roundtrip. Qed.
Example C19_cursor_roundtrip_nonvacuous : wf_cursorb (COp 18446744073709551615 [0; 255] MBefore) = true.
Proof. reflexivity. Qed.

Theorem C19_actor_hex_roundtrip : forall a : bytes,
  wf_bytesb a = true -> actor_of_str (actor_to_str a) = Ok a.
Proof. exact actor_hex_roundtrip. Qed.
Theorem C19_hash_hex_roundtrip : forall h : bytes,
  wf_hashb h = true -> hash_of_str (hash_to_str h) = Ok h.
Proof. exact hash_hex_roundtrip. Qed.
Example C19_hash_hex_roundtrip_nonvacuous : wf_hashb (map N.of_nat (seq 100 32)) = true.
Proof. reflexivity. Qed.

(* sync state: shared_heads is the persisted field; every other field of the decoded
   state is the constant State::parse writes *)
Theorem C19_sync_state_roundtrip : forall s : state,
  wf_hashesb (s_shared_heads s) = true ->
  exists w, state_encode s = Ok w /\ state_decode w = Ok (state_persisted (s_shared_heads s)).
Proof. exact state_roundtrip. Qed.
Example C19_sync_state_roundtrip_nonvacuous :
  wf_hashesb [map N.of_nat (seq 1 32); map N.of_nat (seq 2 32)] = true.
Proof. reflexivity. Qed.

(* sync messages, V1 and V2, with and without flags *)
Theorem C19_message_roundtrip : forall m : message,
  wf_messageb m = true -> exists w, message_encode m = Ok w /\ message_decode w = Ok m.
Proof. exact message_roundtrip. Qed.
Example C19_message_roundtrip_nonvacuous :
  wf_messageb (mkMsg [map N.of_nat (seq 1 32)] [] [mkHave [map N.of_nat (seq 2 32)] (mkFilter 1 10 7 [0; 64])]
                     [[1; 2; 3]; []] (Some 5) V2) = true.
Proof. reflexivity. Qed.

(* the two classes of values outside wf_messageb that the Rust types admit do NOT round trip
   (reported as known findings): a flag byte with bit 7 set, and a Bloom filter decoded from
   bytes that claim zero entries with non-default parameters *)
Theorem C19_message_flag_bit7_refuted :
  exists m w, m_flags m = Some 128 /\ message_encode m = Ok w /\
              message_decode w = Ok (mkMsg (m_heads m) (m_need m) (m_have m) (m_changes m) (Some 0) (m_version m)).
Proof. exact message_flag_bit7_refuted. Qed.
Theorem C19_message_bloom_zero_entries_refuted :
  exists m w, parse [0; 5; 3] = Ok (mkFilter 0 5 3 [], []) /\ m_have m = [mkHave [] (mkFilter 0 5 3 [])] /\
              message_encode m = Ok w /\
              message_decode w = Ok (mkMsg [] [] [mkHave [] default_filter] [] None V1).
Proof. exact message_bloom_zero_refuted. Qed.

(* the internal id an object id resolves to does not depend on the actor-index hint it carries:
   right, stale, out of range — for any duplicate-free actor table, in particular a sorted one *)
Theorem C19_resolve_hint_irrelevant : forall (t : table) (c : N) (a : bytes) (h1 h2 : N),
  NoDup t -> lenN t <= pow32 ->
  exid_to_opid t (EId c a h1) = exid_to_opid t (EId c a h2).
Proof. exact resolve_hint_irrelevant. Qed.
Theorem C19_sorted_table_nodup : forall t : table, sorted_table t = true -> NoDup t.
Proof. exact sorted_table_nodup. Qed.
Example C19_resolve_hint_irrelevant_nonvacuous :
  sorted_table [[1]; [1; 0]; [2]] = true /\ lenN [[1]; [1; 0]; [2]] <= pow32.
Proof. split; [reflexivity|]. vm_compute. discriminate. Qed.

(* ... nor on how the replica numbers actors: in any two replicas that know the actor (whatever
   other actors they hold, whatever the hints) the id resolves, to internal ids that denote the
   same (counter, actor) *)
Theorem C19_resolve_numbering_irrelevant : forall (t1 t2 : table) (c : N) (a : bytes) (h1 h2 : N),
  c <= u32_max -> lenN t1 <= pow32 -> lenN t2 <= pow32 -> In a t1 -> In a t2 ->
  exists o1 o2, exid_to_opid t1 (EId c a h1) = Ok o1 /\ exid_to_opid t2 (EId c a h2) = Ok o2 /\
                denote t1 o1 = Some (c, a) /\ denote t2 o2 = Some (c, a).
Proof.
  intros t1 t2 c a h1 h2 Hc L1 L2 I1 I2.
  destruct (resolve_denotes t1 c a h1 Hc L1 I1) as (o1 & R1 & D1).
  destruct (resolve_denotes t2 c a h2 Hc L2 I2) as (o2 & R2 & D2).
  exists o1, o2. auto.
Qed.
Theorem C19_resolve_unknown_actor : forall (t : table) (c : N) (a : bytes) (h : N),
  ~ In a t -> exid_to_opid t (EId c a h) = Err.
Proof. exact resolve_unknown_actor. Qed.

(* end to end: the id a replica (table tp) hands out for its internal id (c, i), serialised,
   decoded and resolved in a replica with table tq that knows the actor, denotes the same op *)
Theorem C19_exid_transport : forall (tp tq : table) (c i : N) (a : bytes),
  get_actor_safe tp i = Some a -> negb ((c =? 0) && (i =? 0)) = true ->
  c <= u32_max -> wf_bytesb a = true -> lenN a < pow64 ->
  lenN tp <= pow32 -> lenN tq <= pow32 -> In a tq ->
  exists e o, id_to_exid tp (c, i) = Ok e /\ exid_of_bytes (exid_to_bytes e) = Ok e /\
              exid_to_opid tq e = Ok o /\ denote tq o = denote tp (c, i).
Proof. exact exid_transport. Qed.
Example C19_exid_transport_nonvacuous :
  get_actor_safe [[1]; [9]] 1 = Some [9] /\ In [9] [[9]] /\
  exid_to_opid [[9]] (EId 5 [9] 1) = Ok (5, 0).     (* hint 1 is out of range in the table [[9]] *)
Proof. repeat split; try reflexivity. left. reflexivity. Qed.

(* cursors carry the actor, not an index *)
Theorem C19_cursor_resolve : forall (t : table) (c : N) (a : bytes),
  c <= u32_max -> lenN t <= pow32 -> In a t ->
  exists o, cursor_to_opid t c a = Ok o /\ denote t o = Some (c, a).
Proof. exact cursor_resolve_denotes. Qed.

(* end to end for cursors: made by one replica for its element (c, i) (OpCursor::new), sent as
   bytes or text, decoded, and resolved by a replica with another actor table *)
Theorem C19_cursor_transport : forall (tp tq : table) (c i : N) (a : bytes) (m : move_cursor),
  get_actor_safe tp i = Some a -> c <= u32_max -> wf_bytesb a = true -> lenN a < pow64 ->
  lenN tq <= pow32 -> In a tq ->
  exists cur o, cursor_new tp (c, i) m = Ok cur /\
                cursor_of_bytes (cursor_to_bytes cur) = Ok cur /\
                cursor_of_str (cursor_to_str cur) = Ok cur /\
                cursor_to_opid tq c a = Ok o /\ denote tq o = denote tp (c, i).
Proof. exact cursor_transport. Qed.
Example C19_cursor_transport_nonvacuous :
  get_actor_safe [[1]; [9]] 1 = Some [9] /\ In [9] [[0]; [9]; [200]] /\ cursor_to_opid [[0]; [9]; [200]] 5 [9] = Ok (5, 1).
Proof. repeat split; try reflexivity. right. left. reflexivity. Qed.
