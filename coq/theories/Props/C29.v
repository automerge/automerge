(* C29 — Isolated transactions act on the chosen heads.
   Statements; the proofs are in Crdt/TxnProofs.v and, for the index columns, Crdt/UndoProofs.v (a corollary is derived in place).
   Model: Crdt/Txn.v.  [txn_open d (Some hs)] mirrors transaction_at(hs) / an isolated AutoCommit
   opening its transaction: actor chosen by isolate_actor, deps = hs, scope = clock_at(hs) with
   the writing actor's entry raised to u32::MAX (Clock::isolate); [txn_view] is a read through that
   scope over the whole op set (document ops and pending ops); the editing calls (Crdt/Local.v)
   run on the ops the scope admits.  [obs_at] is the historical read of C07 (= the document
   restricted to the ancestors of the heads = fork_at).  Hypotheses: [WFhist] (decidable,
   checked on every generated history), [Built] / [AChain] (invariants of every state reached
   by commits and deliveries, C04). *)
From AM Require Import Base.Prelude Base.Order Crdt.Types Crdt.Interp Crdt.Doc Crdt.Local Crdt.Commit
  Crdt.InterpProofs Crdt.ClockProofs Crdt.QueueProofs Crdt.CommitProofs Crdt.Txn Crdt.TxnProofs Crdt.UndoProofs Exec.HistExec.
From AM Require Exec.TxnExec.
Local Open Scope N_scope.

(* the actor an isolated transaction writes as has all its changes among the ancestors of the
   heads, so raising its clock entry admits nothing of the document beyond those heads *)
Theorem C29_isolated_actor_covered : forall (appl : list change) (heads : list N) (a : actor) (hs : list N) (m : cmeta),
  Built appl -> AChain appl -> commit_meta appl heads a (Some hs) = Ok m ->
  forall c, In c appl -> ch_actor c = cm_actor m -> In c (ancestors appl hs).
Proof. exact isolated_actor_covered. Qed.

Theorem C29_isolated_scope_eq : forall (appl : list change) (hs : list N) (ai : actor) (pending : list op),
  WFhist appl ->
  (forall c, In c appl -> ch_actor c = ai -> In c (ancestors appl hs)) ->
  (forall o, In o pending -> snd (op_id o) = ai) ->
  filter (fun o => iso_covered (at_clock appl hs) ai (op_id o)) (all_ops appl ++ pending)
  = all_ops (ancestors appl hs) ++ pending.
Proof. exact isolated_scope_eq. Qed.

(* reads inside = the state at the heads plus the transaction's own edits; when it opens it is
   exactly the historical read; and it is the op set the editing calls work on *)
Theorem C29_isolated_reads : forall (d : tdoc) (hs : list N) (o : otx) (e : enc) (cs : list call) (o' : otx),
  WFhist (t_applied d) -> Built (t_applied d) -> AChain (t_applied d) ->
  txn_open d (Some hs) = Ok o -> txn_calls e o cs = EOk o' ->
  let appl := t_applied d in
  let pending := tx_pending (ot_tx o') in
  txn_view o' = observe (all_ops (ancestors appl hs) ++ pending) /\
  observe (tx_all (ot_tx o)) = obs_at appl hs /\
  (NoDup (map op_id (all_ops (ancestors appl hs) ++ pending)) -> observe (tx_all (ot_tx o')) = txn_view o').
Proof. exact isolated_reads. Qed.

(* dependencies of the created change: the isolation heads (those the document knows), sorted;
   the change carries them *)
Theorem C29_isolated_deps : forall (d : tdoc) (hs : list N) (o : otx),
  txn_open d (Some hs) = Ok o ->
  cm_deps (ot_meta o) = sortN (filter (has_hash (t_applied d)) hs) /\
  (incl hs (hashes (t_applied d)) -> forall h, In h (cm_deps (ot_meta o)) <-> In h hs) /\
  forall o' hash c d', tx_pending (ot_tx o') <> [] -> ot_meta o' = ot_meta o ->
    txn_commit o' hash = (d', Some c) -> ch_deps c = cm_deps (ot_meta o) /\ ch_hash c = hash.
Proof. exact isolated_deps. Qed.

(* an isolated AutoCommit then isolates at the change it made: the next one depends on it alone *)
Theorem C29_isolated_moves_to_change : forall (e : enc) (d : adoc) (cs : list call) (hash : N) (d' : adoc) (c : change) (hs : list N),
  a_iso d = Some hs -> a_transact e d cs hash = EOk (d', Some c) -> a_iso d' = Some [ch_hash c].
Proof. exact isolated_moves_to_change. Qed.
Theorem C29_isolated_deps_next : forall (appl : list change) (heads : list N) (a : actor) (h : N) (m : cmeta),
  has_hash appl h = true -> commit_meta appl heads a (Some [h]) = Ok m -> cm_deps m = [h].
Proof.
  intros appl heads a h m Hh Hm. rewrite (proj1 (commit_deps_isolated _ _ _ _ _ Hm)). cbn [filter]. rewrite Hh. reflexivity.
Qed.
Theorem C29_isolated_commit_appends : forall (e : enc) (d : adoc) (cs : list call) (hash : N) (d' : adoc) (c : change),
  a_transact e d cs hash = EOk (d', Some c) ->
  t_applied (a_doc d') = t_applied (a_doc d) ++ [c].
Proof. exact isolated_commit_appends. Qed.

(* integrate changes nothing in the document; afterwards it shows the reading of everything it
   has applied, which is what any replica holding the other changes shows after receiving the
   isolated changes [cs] (deliverable one by one: [chain_ready]) *)
Theorem C29_integrate_eq_merge : forall (d : adoc) (appl_e cs : list change),
  let applied_d := t_applied (a_doc d) in
  ops_unique applied_d -> Permutation applied_d (appl_e ++ cs) -> chain_ready appl_e cs ->
  a_doc (a_integrate d) = a_doc d /\ a_iso (a_integrate d) = None /\
  a_view (a_integrate d) = observe (all_ops applied_d) /\
  exists e', deliver_each (mkDoc appl_e []) cs = Ok e' /\
             a_view (a_integrate d) = observe (all_ops (applied e')) /\
             heads_of applied_d = heads_of (applied e').
Proof. exact integrate_eq_merge. Qed.

(* the index columns under a scoped transaction (Crdt/Txn.v: add_succ_with_undo / reset_top, as
   of the repair 9da869ded): an increment names every op its scope shows, also ops the document
   has superseded since; whatever the inserts, no top flag is left on an op that is not visible
   ([top_vis], the state in which reset_top's assertion fired before the repair: fixed finding
   `panic|txn|call|scoped|increment`) *)
Theorem C29_add_succ_keeps_top_visible : forall (c : cols) (ins : list sins) (c' : cols) (us : list sundo),
  top_vis c -> add_succ_with_undo c ins = Ok (c', us) -> top_vis c'.
Proof. exact add_succ_keeps_top_visible. Qed.
(* non-vacuity, on the columns of the repaired defect (a counter and a concurrent null, both
   deleted in the document, named by a scoped increment) *)
Example C29_add_succ_keeps_top_visible_nonvacuous :
  let c := mkCols [1; 1] [false; false] [None; None] [false; false] [((8, [1]), None); ((12, [1]), None)] in
  let ins := [mkSI (20, [3]) 0 (Some 3%Z) 1 1 (Some 1); mkSI (20, [3]) 1 None 1 2 (Some 1)] in
  top_vis c /\
  exists c' us, add_succ_with_undo c ins = Ok (c', us) /\ c_top c' = [false; false] /\
                reset_top (c_vis c') (c_top c') 0 2 = Ok [false; false] /\ undo_succ c' us = Ok c.
Proof. exact scoped_increment_fixed. Qed.

(* non-vacuity: actor [2] made two changes; a transaction isolated at the FIRST one (not the
   current heads) is written by the concurrency-level actor, reads a = 1 (not 2), and its put
   supersedes op (1,[2]) only; integrating equals delivering its change to a replica that has
   the two changes *)
Example C29_nonvacuous :
  let op1 := mkOp (1, [2]) root_id (KMap [97]) false (APut (SInt 1)) [] in
  let op2 := mkOp (2, [2]) root_id (KMap [97]) false (APut (SInt 2)) [(1, [2])] in
  let appl := [mkChange 21 [2] 1 1 [] [op1]; mkChange 22 [2] 2 2 [21] [op2]] in
  let d := mkT (mkM (mkDoc appl []) [22]) [[2]] [2] in
  WFhist appl /\ Built appl /\ AChain appl /\
  exists o o' d' c,
    txn_open d (Some [21]) = Ok o /\ cm_actor (ot_meta o) = with_concurrency [2] 1 /\
    txn_calls EncCP o [CPut root_id (PMap [97]) (SInt 7)] = EOk o' /\
    txn_commit o' 23 = (d', Some c) /\ ch_deps c = [21] /\
    map op_pred (ch_ops c) = [[(1, [2])]] /\
    chain_ready appl [c] /\ Permutation (t_applied d') (appl ++ [c]) /\ ops_unique (t_applied d').
Proof.
  intros op1 op2 appl d.
  assert (W : WFhist appl) by (apply wf_hist_b_sound; vm_compute; reflexivity).
  split; [exact W|]. split; [apply Built_iff; split; [apply (wf_nodup _ W)|apply (wf_topo _ W)]|]. split.
  - pose (steps := [SCommit (mkReq [2] None [op1] false 21); SCommit (mkReq [2] None [op2] false 22)]).
    assert (R : exists m, m_run m_empty steps = Ok m /\ applied (m_doc m) = appl)
      by (eexists; split; vm_compute; reflexivity).
    destruct R as [m [Hr Ha]]. rewrite <- Ha.
    apply (chain_invariant steps m_empty m MInv_empty AChain_nil); [|vm_compute; repeat split|exact Hr].
    cbn. repeat split; vm_compute; intuition discriminate.
  - eexists. eexists. eexists. eexists.
    split; [vm_compute; reflexivity|]. split; [reflexivity|].
    split; [vm_compute; reflexivity|]. split; [vm_compute; reflexivity|].
    split; [reflexivity|]. split; [reflexivity|].
    split; [vm_compute; repeat split; try reflexivity|].
    split; [vm_compute; apply Permutation_refl|].
    unfold ops_unique. vm_compute. repeat constructor; cbn; intuition discriminate.
Qed.
