(* C08 — diff between any two heads transforms one state into the other.
   Spec-level.  Model: Crdt/Patch.v — the materialized [view] (hydrate::Value with object ids and
   conflict flags; counters; texts as unit sequences of the document's encoding), the nine patch
   actions of patches/patch.rs, the applier mirroring hydrate.rs Value::apply / Map::apply /
   List::apply / Text::apply, and a model-level generator [diff].  The implementation's generator
   (iter/{doc,map_range,list_range,spans}.rs, patches/patch_log.rs, patch_builder.rs) is NOT mirrored:
   the theorems fix what a correct patch list is (the applier) and show that for ANY two well-formed
   views a patch list exists and is found by [diff]; the implementation's own patches for recorded
   head pairs are validated on every run by this applier (family `patch`, chk_apply) and by
   hydrate::Value::apply_patches.  Proofs in Crdt/PatchProofs.v. *)
From AM Require Import Base.Prelude Base.Order Crdt.Types Crdt.Interp Crdt.Local Crdt.Patch Crdt.PatchProofs.
Local Open Scope N_scope.

(* the patch language is complete and the applier sound for the generator: any document view is
   turned into any other (nested objects, conflict flags, counters, text; in every encoding) *)
Theorem C08_diff_apply : forall e v1 v2, wf_view v1 -> wf_view v2 ->
  apply_patches e (diff v1 v2) v1 = Some v2.
Proof. exact diff_apply. Qed.

(* the same for any two nodes of the same kind and id (per-object diff) *)
Theorem C08_diff_apply_node : forall e v1 v2,
  same_shell v1 v2 = true -> wf_node v1 = true -> wf_node v2 = true ->
  apply_patches e (diff v1 v2) v1 = Some v2.
Proof. intros e v1 v2. exact (diff_apply_node e v2 v1). Qed.

(* both directions: going there and back restores the view *)
Theorem C08_diff_roundtrip : forall e v1 v2 v, wf_view v1 -> wf_view v2 ->
  apply_patches e (diff v1 v2) v1 = Some v -> apply_patches e (diff v2 v1) v = Some v1.
Proof.
  intros e v1 v2 v W1 W2 H. rewrite (diff_apply e v1 v2 W1 W2) in H. inversion H; subst.
  apply diff_apply; assumption.
Qed.

(* the applier is a function of (view, patch): two runs cannot differ *)
Theorem C08_apply_deterministic : forall e v p a b,
  apply_patch e v p = Some a -> apply_patch e v p = Some b -> a = b.
Proof. congruence. Qed.

(* frame: a patch changes nothing off its path — every subtree reached by a path that leaves the
   patch's path at some step (another key, another index) is exactly what it was; in particular a
   patch on object o leaves every object that is not o, an ancestor of o or inside o unchanged *)
Theorem C08_apply_frame : forall e v p v' q,
  apply_patch e v p = Some v' -> diverges q (map snd (p_path p)) ->
  subtree v' q = subtree v q.
Proof. exact apply_patch_frame. Qed.

(* the ancestors of the patched object keep their kind and id, the patched object too *)
Theorem C08_apply_keeps_shell : forall e v p v',
  apply_patch e v p = Some v' -> same_shell v v' = true.
Proof. exact apply_patch_shell. Qed.

(* the decidable well-formedness used by the checker is the predicate of the theorems *)
Theorem C08_wf_checker_sound : forall v, wf_viewb v = true <-> wf_view v.
Proof. exact wf_viewb_spec. Qed.

(* non-vacuity: nested objects, a conflict that appears, one that disappears (object re-created
   and refilled), a counter increment, text in UTF-8 *)
Definition ex_v1 : view :=
  VMap root_id [([97], (VScalar (SCounter 3), false));
                ([98], (VList (2,[1]) [(VScalar (SInt 1), false);
                                       (VMap (5,[1]) [([120], (VScalar SNull, true))], true)], false));
                ([99], (VText (3,[1]) [104;105], false))].
Definition ex_v2 : view :=
  VMap root_id [([97], (VScalar (SCounter 9), true));
                ([98], (VList (2,[1]) [(VMap (5,[1]) [([120], (VScalar SNull, false));
                                                      ([121], (VScalar (SInt 4), false))], false)], false));
                ([100], (VText (7,[1]) [195;169], true))].

Example C08_diff_apply_nonvacuous :
  wf_view ex_v1 /\ wf_view ex_v2 /\ ex_v1 <> ex_v2 /\
  length (diff ex_v1 ex_v2) = 9%nat /\
  apply_patches EncU8 (diff ex_v1 ex_v2) ex_v1 = Some ex_v2 /\
  apply_patches EncU8 (diff ex_v2 ex_v1) ex_v2 = Some ex_v1.
Proof.
  split; [apply wf_viewb_spec; vm_compute; reflexivity|].
  split; [apply wf_viewb_spec; vm_compute; reflexivity|].
  split; [discriminate|]. repeat split; vm_compute; reflexivity.
Qed.

Example C08_frame_nonvacuous :
  exists p v', apply_patch EncCP ex_v1 p = Some v' /\ v' <> ex_v1 /\
               diverges [PMap [99]] (map snd (p_path p)) /\ subtree v' [PMap [99]] = subtree ex_v1 [PMap [99]].
Proof.
  exists (mkPatch (5,[1]) [(root_id, PMap [98]); ((2,[1]), PSeq 1)] (PutMap [122] (PVS (SInt 1)) false)).
  eexists. split; [vm_compute; reflexivity|]. split; [discriminate|].
  split; [|vm_compute; reflexivity].
  exists [], (PMap [99]), (PMap [98]), [], [PSeq 1]. repeat split. discriminate.
Qed.
