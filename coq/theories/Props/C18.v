(* C18 — Change and bundle encodings round-trip.
   Statements; proofs in Store/ChangeChunkProofs.v, Base/Sleb128Proofs.v, Codec/ColEncProofs.v (the legacy
   column codecs) and Store/ChangeOpsProofs.v (the op columns).

   The model (Store/ChangeChunk.v) is the body of a change chunk as storage/change.rs parses and
   writes it: dependencies, actor, seq, start_op, time (signed LEB128), message (UTF-8 checked),
   other actors, column metadata (RawColumns::parse with its normal-order, deflate-bit and column
   layout checks), column data, extra bytes — any number of dependencies / actors / columns.
   The op columns inside the column data are modelled in Codec/ColEnc.v (the legacy RLE / delta /
   boolean / raw codecs) and Store/ChangeOps.v (ChangeOpsColumns::encode, try_from(Columns),
   ChangeOpsIter, verify_ops); see the section "op columns" at the end of this file: the LEB and
   string readers and the boolean decoder are proved, the RLE decoder is proved to be able to
   PANIC (refuted), the general decode-after-encode theorem for op lists is stated
   ([ops_roundtrip_statement]) but NOT proved: only instances are (…_partial).
   Bundles are spec-level (the bundle body is a parameter).
   Those parts are checked on the implementation by the harness family `chg`. *)
From AM Require Import Base.Prelude Base.Leb128 Base.Sleb128 Base.Sleb128Proofs Gen.Consts
  Store.Chunk Store.ChunkProofs Store.ChangeChunk Exec.ChgExec Store.ChangeChunkProofs
  Codec.ColEnc Codec.ColEncProofs Store.ChangeOps Store.ChangeOpsProofs.
Local Open Scope N_scope.

(* the reader inverts the writer: every field of every well-formed body comes back *)
Theorem C18_change_roundtrip_partial : forall c : change_body,
  wf_change_body c -> parse_body (encode_body c) = Ok c.
Proof. exact change_body_roundtrip. Qed.

(* the reader accepts only the writer's output: what it parsed re-encodes to the same bytes
   (a Rust slice is shorter than 2^64 bytes), and is well-formed *)
Theorem C18_change_canonical : forall (b : bytes) (c : change_body),
  wf_bytes b -> lenN b < pow64 -> parse_body b = Ok c -> encode_body c = b /\ wf_change_body c.
Proof. exact change_body_canonical. Qed.

(* hence expanding and re-encoding keeps the hash, whatever the hash function is
   (hash = Hsh (type ‖ uleb(len) ‖ data), Store/Chunk.v) *)
Theorem C18_hash_stable_under_reencode : forall (Hsh : bytes -> bytes) (b : bytes) (c : change_body),
  wf_bytes b -> lenN b < pow64 -> parse_body b = Ok c ->
  chunk_hash Hsh CHUNK_CHANGE (encode_body c) = chunk_hash Hsh CHUNK_CHANGE b.
Proof. exact change_hash_stable. Qed.

(* no bytes make the reader panic *)
Theorem C18_parse_no_panic : forall b : bytes, parse_body b <> Panic.
Proof. exact parse_body_no_panic. Qed.

(* inside the chunk framing: a raw change chunk followed by anything parses back to the change *)
Theorem C18_change_chunk_roundtrip :
  forall Hsh : bytes -> bytes, (forall x : bytes, (4 <= length (Hsh x))%nat) ->
  forall (other : N -> bytes -> option (list change_body)) (inflate : bytes -> option bytes)
    (c : change_body) (rest : bytes),
  wf_change_body c -> lenN (encode_body c) < pow64 ->
  parse_chunk Hsh change_body (chunk_body other) inflate
    (encode_chunk Hsh CHUNK_CHANGE (encode_body c) ++ rest) = Ok (CHUNK_CHANGE, [c], rest).
Proof. exact change_chunk_roundtrip. Qed.

(* the compressed form: for ANY deflate stream that inflates to the body (DEFLATE is a parameter) *)
Theorem C18_compressed_chunk_roundtrip :
  forall Hsh : bytes -> bytes, (forall x : bytes, (4 <= length (Hsh x))%nat) ->
  forall (other : N -> bytes -> option (list change_body)) (inflate : bytes -> option bytes)
    (c : change_body) (deflated rest : bytes),
  wf_change_body c -> lenN deflated < pow64 -> inflate deflated = Some (encode_body c) ->
  parse_chunk Hsh change_body (chunk_body other) inflate
    (encode_compressed Hsh deflated (encode_body c) ++ rest) = Ok (CHUNK_COMPRESSED, [c], rest).
Proof. exact change_chunk_compressed_roundtrip. Qed.

(* the signed LEB128 of the time field: inverse on every i64, canonical, total *)
Theorem C18_time_roundtrip : forall (z : Z) (rest : bytes),
  in_i64 z -> sleb_dec (sleb_enc z ++ rest) = Ok (z, rest).
Proof. exact sleb_roundtrip. Qed.

Theorem C18_time_canonical : forall (l : bytes) (z : Z) (rest : bytes),
  wf_bytes l -> sleb_dec l = Ok (z, rest) -> l = sleb_enc z ++ rest /\ in_i64 z.
Proof. exact sleb_canonical. Qed.

(* bundles, spec level: the bundle body is the parameter [body]; whatever changes it stands for,
   loading the bundle chunk is applying exactly those changes *)
Theorem C18_bundle_load_spec :
  forall Hsh : bytes -> bytes, (forall x : bytes, (4 <= length (Hsh x))%nat) ->
  forall (C : Type) (body : N -> bytes -> option (list C)) (inflate : bytes -> option bytes)
    (D : Type) (empty : D) (apply : D -> list C -> res D) (queue_empty is_empty : D -> bool)
    (data : bytes) (cs : list C) (d : D),
  lenN data < pow64 -> body CHUNK_BUNDLE data = Some cs ->
  load Hsh C body inflate D empty apply queue_empty Ignore (encode_chunk Hsh CHUNK_BUNDLE data) = apply empty cs
  /\ (is_empty d = false ->
      load_incremental Hsh C body inflate D empty apply queue_empty is_empty d (encode_chunk Hsh CHUNK_BUNDLE data)
      = apply d cs).
Proof. exact bundle_load_spec. Qed.

(* every column layout the writer emits (ChangeOpsColumns::raw_columns: a sub-list of its fixed
   14 columns with value raw beside value metadata and the pred columns together) passes the
   reader's order, deflate-bit and layout checks *)
Theorem C18_writer_layout_accepted : forall ss : list N,
  writer_specs_ok ss = true ->
  layout_ok ss = true /\ normal_sorted ss = true /\ existsb spec_deflate ss = false.
Proof. exact writer_layout_accepted. Qed.

(* what a [true] of the correspondence checker the harness evaluates means *)
Theorem C18_checker_sound : forall (data : bytes) (deps : list bytes) (actor : bytes) (seq start : N)
    (time : Z) (msg : bytes) (others : list bytes) (extra : bytes),
  chk_chg_body data deps actor seq start time msg others extra = true ->
  exists c, parse_body data = Ok c /\ encode_body c = data /\ wf_change_body c
    /\ cb_deps c = deps /\ cb_actor c = actor /\ cb_seq c = seq /\ cb_start_op c = start
    /\ cb_time c = time /\ cb_message c = msg /\ cb_others c = others /\ cb_extra c = extra.
Proof. exact chk_chg_body_sound. Qed.

(* non-vacuity.  [real] is the chunk data of a change written by the implementation (actor f0 00 14,
   seq 1, ten op columns: obj, key, insert, action, value, pred groups); [made] carries every
   optional part: two dependencies, a message with a 2-, 3- and 4-byte UTF-8 sequence, a negative
   time, two other actors, a value column pair and a pred group, extra bytes. *)
Definition real : bytes :=
  [0;3;240;0;20;1;1;0;0;0;10;1;4;2;4;17;4;19;5;21;8;52;2;66;5;86;5;87;4;112;2;0;2;2;0;0;2;2;2;0;3;
   127;0;0;2;126;0;3;126;1;97;2;122;122;0;2;2;2;126;1;2;2;1;124;54;0;7;24;101;204;129;5;4;0].

Definition made : change_body :=
  mkBody [repeat 7 32; repeat 200 32] [1; 2; 3] 300 70000 (-1234567890123)%Z
         [99; 195; 169; 230; 188; 162; 240; 159; 152; 128] [[9]; []]
         [(1, 1); (21, 2); (52, 0); (86, 1); (87, 3); (112, 1); (113, 1); (115, 1)]
         [1; 2; 3; 4; 5; 6; 7; 8; 9; 10] [255; 0].

Example C18_roundtrip_nonvacuous :
  wf_change_body made /\ parse_body (encode_body made) = Ok made
  /\ exists c, parse_body real = Ok c /\ cb_actor c = [240; 0; 20] /\ length (cb_cols c) = 10%nat.
Proof. split; [vm_compute; reflexivity|]. split; [vm_compute; reflexivity|]. eexists. vm_compute. repeat split. Qed.

Example C18_canonical_nonvacuous :
  wf_bytes real /\ lenN real < pow64 /\ exists c, parse_body real = Ok c /\ encode_body c = real.
Proof.
  split; [apply wf_bytesb_spec; vm_compute; reflexivity|]. split; [vm_compute; reflexivity|].
  eexists. split; [vm_compute; reflexivity|]. vm_compute. reflexivity.
Qed.

(* the reader does reject: an over-long time, a zero start_op, a surrogate in the message, a
   deflate-flagged column, a raw value column without its metadata column *)
Example C18_rejects :
  parse_body [0; 0; 1; 1; 128; 0; 0; 0; 0] = Err
  /\ parse_body [0; 0; 1; 0; 0; 0; 0; 0] = Err
  /\ parse_body [0; 0; 1; 1; 0; 3; 237; 160; 128; 0; 0] = Err
  /\ parse_body [0; 0; 1; 1; 0; 0; 0; 1; 9; 0] = Err
  /\ parse_body [0; 0; 1; 1; 0; 0; 0; 1; 87; 0] = Err
  /\ parse_body [0; 0; 1; 1; 0; 0; 0; 0] <> Err.
Proof. vm_compute. repeat split; try reflexivity; discriminate. Qed.

Example C18_time_nonvacuous :
  sleb_enc (-9223372036854775808)%Z = [128; 128; 128; 128; 128; 128; 128; 128; 128; 127]
  /\ sleb_dec [128; 128; 128; 128; 128; 128; 128; 128; 128; 127] = Ok ((-9223372036854775808)%Z, [])
  /\ sleb_dec [255; 127] = Err /\ sleb_dec [128; 0] = Err /\ sleb_dec [192; 0] = Ok (64%Z, []).
Proof. vm_compute. repeat split. Qed.

Example C18_checker_nonvacuous : chk_chg_written real [] [240; 0; 20] 1 1 0%Z [] [] [] = true.
Proof. vm_compute. reflexivity. Qed.

Example C18_writer_layout_nonvacuous :
  writer_specs_ok [1; 2; 17; 19; 21; 52; 66; 86; 87; 112] = true
  /\ writer_specs_ok [86; 87; 112; 113; 115; 148; 165] = true
  /\ writer_specs_ok [87] = false /\ writer_specs_ok [112; 113] = false /\ writer_specs_ok [2; 1] = false.
Proof. vm_compute. repeat split. Qed.

Section Example.
  Let H (_ : bytes) : bytes := [1; 2; 3; 4].
  Let other (_ : N) (_ : bytes) : option (list change_body) := None.
  Let inf (d : bytes) : option bytes := if bytes_eqb d [42] then Some (encode_body made) else None.
  Example C18_chunk_nonvacuous :
    parse_chunk H change_body (chunk_body other) inf (encode_chunk H CHUNK_CHANGE (encode_body made) ++ [5; 6])
      = Ok (CHUNK_CHANGE, [made], [5; 6])
    /\ parse_chunk H change_body (chunk_body other) inf (encode_compressed H [42] (encode_body made))
      = Ok (CHUNK_COMPRESSED, [made], []).
  Proof. vm_compute. split; reflexivity. Qed.
End Example.

(* op columns
   Codec/ColEnc.v: the legacy column codecs (columnar/encoding/*.rs); Store/ChangeOps.v: the op record, the
   writer [encode_ops] = ChangeOpsColumns::encode + raw_columns, the reader [decode_ops] =
   ChangeOpsColumns::try_from(Columns) + ChangeOpsIter, and [parse_change_full] = parse_following_header +
   verify_ops. *)

(* the value readers of the columns (the `leb128` crate readers, which also accept over-long forms, and the
   length-prefixed UTF-8 string reader) invert the writers, on every u64 / i64 / string the reader is willing
   to allocate *)
Theorem C18_col_u64_roundtrip : forall (n : N) (rest : bytes),
  n < pow64 -> u64_rd (uleb_enc n ++ rest) = Ok (n, rest).
Proof. exact u64_rd_roundtrip. Qed.

Theorem C18_col_i64_roundtrip : forall (z : Z) (rest : bytes),
  in_i64 z -> i64_rd (sleb_enc z ++ rest) = Ok (z, rest).
Proof. exact i64_rd_roundtrip. Qed.

Theorem C18_col_str_roundtrip : forall (utf8 : bytes -> bool) (s rest : bytes),
  utf8 s = true -> N.of_nat (length s) <= MAX_ALLOCATION ->
  str_rd utf8 (str_enc s ++ rest) = Ok (s, rest).
Proof. exact str_rd_roundtrip. Qed.

(* no bytes make the value readers or the boolean decoders panic *)
Theorem C18_col_readers_no_panic : forall (utf8 : bytes -> bool) (l : bytes),
  u64_rd l <> Panic /\ i64_rd l <> Panic /\ str_rd utf8 l <> Panic.
Proof. intros utf8 l. split; [apply u64_rd_no_panic|split; [apply i64_rd_no_panic|apply str_rd_no_panic]]. Qed.

Theorem C18_bool_decoder_no_panic : forall (orig_empty : bool) (s : bool_st),
  bool_next s <> Panic /\ maybe_bool_next orig_empty s <> Panic.
Proof. intros e s. split; [apply bool_next_no_panic|apply maybe_bool_next_no_panic]. Qed.

(* REFUTED: the RLE decoder (hence the delta decoder and every op column but insert / expand) can panic in a
   build with overflow checks: a literal-run header of i64::MIN ([count.abs()]), a null run of 2^63 items (the
   count cast [as isize] is isize::MIN and [count -= 1] overflows).  Reproduced on the implementation through
   Change::from_bytes (known findings, family chg) *)
Theorem C18_rle_decoder_panics_refuted :
  rle_next u64_rd (rle_init [128; 128; 128; 128; 128; 128; 128; 128; 128; 127; 1]) = Panic
  /\ rle_next u64_rd (rle_init [0; 128; 128; 128; 128; 128; 128; 128; 128; 128; 1]) = Panic.
Proof. exact rle_decoder_panics. Qed.

(* REFUTED: reading the ops of a change can panic although its container parses: [panic_data] is the chunk data
   of a change whose key-actor column is a literal run of i64::MIN items; [panic_cols] has an object counter above
   u32::MAX ([OpId::new] unwraps the u32 conversion, in every build) *)
Theorem C18_ops_decode_panics_refuted :
  parse_change_full panic_data = Panic /\ is_ok (parse_body panic_data) = true /\ decode_ops panic_cols = Panic.
Proof. exact ops_decode_panics. Qed.

(* the lazily bounded loop the op reader is written with is plain bounded iteration *)
Theorem C18_loop_pos_is_iteration : forall (S R : Type) (step : S -> S + R) (p : positive) (s : S),
  loop_pos step p s = loop_nat step (Pos.to_nat p) s.
Proof. exact @loop_pos_nat. Qed.

(* PARTIAL.  The statement wanted is [ops_roundtrip_statement]:
     forall ops, wf_chopsb ops = true -> decode_ops (encode_ops ops) = Ok ops
   ([wf_chopsb]: op ids within u32, UTF-8 keys / mark names / strings of at most MAX_ALLOCATION bytes, values within
   u64 / i64, 8-byte floats, unknown type codes 10..15, an action the reader accepts for the value, fewer than 2^63
   ops and predecessors).  It is NOT proved (the RLE / delta encoder invariants are missing).  Proved: it holds on
   [ex_ops] (every value type, a mark with a name and expand, an increment, a delete, inserts at the head and after
   elements, predecessors of three actors, a unicode and an empty key, repeat and literal runs, all fourteen columns)
   and on 330 ops whose runs cross 64 and 128 items (the expand and mark columns are omitted, all-false / all-null);
   the empty list writes no column and no column reads as the empty list *)
Theorem C18_ops_roundtrip_partial :
  wf_chopsb ex_ops = true /\ decode_ops (encode_ops ex_ops) = Ok ex_ops
  /\ map fst (encode_ops ex_ops) = [1; 2; 17; 19; 21; 52; 66; 86; 87; 112; 113; 115; 148; 165]
  /\ encode_ops [] = [] /\ decode_ops [] = Ok [].
Proof. exact ex_ops_roundtrip. Qed.

Theorem C18_ops_long_runs_roundtrip_partial :
  let ops := repeat (mkChop (0, 0) (K_Prop [97]) false 1 SV_Null [] false None) 200
             ++ repeat (mkChop (1, 0) (K_Elem (0, 0)) true 1 (SV_Uint 7) [(1, 0)] false None) 130 in
  wf_chopsb ops = true /\ decode_ops (encode_ops ops) = Ok ops
  /\ map fst (encode_ops ops) = [1; 2; 19; 21; 52; 66; 86; 87; 112; 113; 115].
Proof. exact long_run_roundtrip. Qed.

Example C18_col_roundtrip_nonvacuous :
  u64_rd (uleb_enc 18446744073709551615 ++ [7]) = Ok (18446744073709551615, [7])
  /\ u64_rd [128; 0; 9] = Ok (0, [9])                    (* over-long zero: accepted by this reader *)
  /\ uleb_dec [128; 0; 9] = Err                          (* and rejected by the strict one *)
  /\ i64_rd (sleb_enc (-9223372036854775808)%Z) = Ok ((-9223372036854775808)%Z, [])
  /\ str_rd utf8_valid (str_enc [195; 169] ++ [1]) = Ok ([195; 169], [1])
  /\ str_rd utf8_valid [2; 195; 40] = Err
  /\ maybe_bool_encode [false; false; false] = [] /\ bool_encode [false; false; true] = [2; 1].
Proof. vm_compute. repeat split. Qed.

(* the op checkers of the harness on the real change of [C18_roundtrip_nonvacuous] *)
Example C18_ops_checker_nonvacuous :
  match parse_change_full real with
  | Ok (c, ops) => match ops with [] => False | _ => True end /\ cols_eqb (encode_ops ops) (split_cols (cb_cols c) (cb_data c)) = true
                   /\ wf_chopsb ops = true
  | _ => False
  end.
Proof. vm_compute. repeat split. Qed.
