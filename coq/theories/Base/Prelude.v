(* Base/Prelude.v — shared vocabulary of the automerge model: results of partial operations, bytes,
   the integer bounds, slicing, boolean equalities. *)
From Coq Require Export List Bool Arith NArith ZArith Lia Permutation.
From Coq Require Export ZifyBool ZifyNat ZifyN.
Export ListNotations.

(* ZifyBool makes [lia] split on every boolean term of the context before it starts
   ([elim_bool_cstr]), which is exponential in their number and never needed here: comparisons
   such as [a <? b] are translated by zify itself. *)
Ltac Zify.zify_post_hook ::= idtac.

(* Results of partial Rust operations.  [Panic] is a value: a model function
   mirrors its Rust original including the partial operations ([%] by zero,
   slicing, [unwrap]), so "never panics" is a theorem and not an artefact of
   totality. *)
Inductive res (A : Type) : Type :=
| Ok (a : A)
| Err
| Panic.
Arguments Ok {A} a.
Arguments Err {A}.
Arguments Panic {A}.

Definition bind {A B} (r : res A) (f : A -> res B) : res B :=
  match r with Ok a => f a | Err => Err | Panic => Panic end.
Notation "'let*' x ':=' r 'in' k" := (bind r (fun x => k))
  (at level 200, x pattern, r at level 100, k at level 200).

(* inversion of a successful [let*], and the step of every "never panics" proof *)
Lemma bind_ok {A B} (r : res A) (f : A -> res B) (y : B) :
  bind r f = Ok y -> exists x, r = Ok x /\ f x = Ok y.
Proof. destruct r as [x| |]; cbn [bind]; try discriminate. intros H. exists x. auto. Qed.

Lemma bind_no_panic {A B} (r : res A) (f : A -> res B) :
  r <> Panic -> (forall x, r = Ok x -> f x <> Panic) -> bind r f <> Panic.
Proof. destruct r as [x| |]; cbn [bind]; [auto|discriminate|contradiction]. Qed.

Definition is_ok {A} (r : res A) : bool := match r with Ok _ => true | _ => false end.
Definition is_panic {A} (r : res A) : bool := match r with Panic => true | _ => false end.

Definition byte := N.            (* always < 256 where it matters: [wf_bytes] *)
Definition bytes := list N.
Definition wf_byte (b : N) : Prop := (b < 256)%N.
Definition wf_bytes (l : bytes) : Prop := Forall wf_byte l.
Definition wf_byteb (b : N) : bool := (b <? 256)%N.
Definition wf_bytesb (l : bytes) : bool := forallb wf_byteb l.

Lemma wf_bytesb_spec l : wf_bytesb l = true <-> wf_bytes l.
Proof.
  unfold wf_bytesb, wf_bytes. rewrite forallb_forall, Forall_forall.
  split; intros H x Hx; specialize (H x Hx); unfold wf_byteb, wf_byte in *; lia.
Qed.

Lemma wf_bytes_app a b : wf_bytes (a ++ b) <-> wf_bytes a /\ wf_bytes b.
Proof. unfold wf_bytes. rewrite Forall_app. tauto. Qed.

Definition u32_max : N := 4294967295.
Definition u64_max : N := 18446744073709551615.
Definition pow32 : N := 4294967296.
Definition pow64 : N := 18446744073709551616.

(* take n bytes: [None] when the input is too short (the parser's
   "not enough input" error) *)
Fixpoint take_n {A} (n : nat) (l : list A) : option (list A * list A) :=
  match n with
  | O => Some ([], l)
  | S k => match l with
           | [] => None
           | x :: t => match take_n k t with
                       | Some (a, r) => Some (x :: a, r)
                       | None => None
                       end
           end
  end.

Lemma take_n_sound {A} n (l a r : list A) :
  take_n n l = Some (a, r) -> l = a ++ r /\ length a = n.
Proof.
  revert l a r; induction n as [|n IH]; intros l a r; cbn [take_n].
  - intros H; inversion H; subst; auto.
  - destruct l as [|x t]; [discriminate|].
    destruct (take_n n t) as [[a' r']|] eqn:E; [|discriminate].
    intros H; inversion H; subst. apply IH in E. destruct E as [-> <-]. auto.
Qed.

Lemma take_n_app {A} (a r : list A) : take_n (length a) (a ++ r) = Some (a, r).
Proof. induction a as [|x a IH]; cbn; [reflexivity|]. rewrite IH. reflexivity. Qed.

Lemma take_n_spec {A} n (l a r : list A) :
  take_n n l = Some (a, r) <-> (l = a ++ r /\ length a = n).
Proof.
  split; [apply take_n_sound|]. intros [-> <-]. apply take_n_app.
Qed.

Lemma take_n_short {A} n (l : list A) : take_n n l = None <-> (length l < n)%nat.
Proof.
  revert l; induction n as [|n IH]; intros l; cbn [take_n]; [split; [discriminate|lia]|].
  destruct l as [|x t]; cbn [length]; [split; [lia|reflexivity]|].
  rewrite <- Nat.succ_lt_mono, <- IH. destruct (take_n n t) as [[a r]|]; split; congruence.
Qed.

(* The bytes a decoded length announces: [take_N] of Codec/Bloom.v and of Store/Chunk.v and [col_take]
   of Codec/ColEnc.v all unfold to the left-hand side. *)
Lemma take_n_N_spec {A} n (l a r : list A) :
  (if (N.of_nat (length l) <? n)%N then None else take_n (N.to_nat n) l) = Some (a, r)
  <-> l = a ++ r /\ N.of_nat (length a) = n.
Proof.
  destruct (N.of_nat (length l) <? n)%N eqn:E; [|rewrite take_n_spec]; split; try discriminate.
  - intros [-> Hn]. rewrite app_length in E. lia.
  - intros [-> Hn]. split; [reflexivity|lia].
  - intros [-> Hn]. split; [reflexivity|lia].
Qed.

Section Eqb.
  Context {A : Type} (eqb : A -> A -> bool).
  Fixpoint memb (x : A) (l : list A) : bool :=
    match l with [] => false | y :: t => eqb x y || memb x t end.
  Fixpoint dedupb (l : list A) : list A :=
    match l with [] => [] | x :: t => if memb x t then dedupb t else x :: dedupb t end.
  Fixpoint list_eqb (a b : list A) : bool :=
    match a, b with
    | [], [] => true
    | x :: a', y :: b' => eqb x y && list_eqb a' b'
    | _, _ => false
    end.
End Eqb.

Lemma memb_In {A} (eqb : A -> A -> bool)
  (Heq : forall x y, eqb x y = true <-> x = y) x l :
  memb eqb x l = true <-> In x l.
Proof.
  induction l as [|y t IH]; cbn; [split; [discriminate|tauto]|].
  rewrite orb_true_iff, IH, Heq. split; intros [H|H]; auto.
Qed.

Lemma memb_false {A} (eqb : A -> A -> bool) (Heq : forall x y, eqb x y = true <-> x = y) x l :
  ~ In x l -> memb eqb x l = false.
Proof. intros H. destruct (memb eqb x l) eqn:E; [|reflexivity]. apply (memb_In eqb Heq) in E. contradiction. Qed.

Lemma memb_N_In x l : memb N.eqb x l = true <-> In x l.
Proof. apply memb_In. intros a b. apply N.eqb_eq. Qed.

Lemma list_eqb_spec {A} (eqb : A -> A -> bool)
  (Heq : forall x y, eqb x y = true <-> x = y) a b :
  list_eqb eqb a b = true <-> a = b.
Proof.
  revert b; induction a as [|x a IH]; intros [|y b]; cbn; try (split; [discriminate|discriminate]).
  - tauto.
  - rewrite andb_true_iff, Heq, IH. split; [intros [-> ->]; auto|intros H; inversion H; auto].
Qed.

Definition bytes_eqb : bytes -> bytes -> bool := list_eqb N.eqb.
Lemma bytes_eqb_spec a b : bytes_eqb a b = true <-> a = b.
Proof. apply list_eqb_spec. intros; apply N.eqb_eq. Qed.

Definition option_eqb {A} (eqb : A -> A -> bool) (a b : option A) : bool :=
  match a, b with
  | Some x, Some y => eqb x y
  | None, None => true
  | _, _ => false
  end.

Lemma option_eqb_spec {A} (eqb : A -> A -> bool) (Heq : forall x y, eqb x y = true <-> x = y) a b :
  option_eqb eqb a b = true <-> a = b.
Proof.
  destruct a as [x|], b as [y|]; cbn [option_eqb]; try (split; [discriminate|discriminate]); [|tauto].
  rewrite Heq. split; [intros ->; reflexivity|intros H; inversion H; reflexivity].
Qed.

Definition res_eqb {A} (eqb : A -> A -> bool) (a b : res A) : bool :=
  match a, b with
  | Ok x, Ok y => eqb x y
  | Err, Err => true
  | Panic, Panic => true
  | _, _ => false
  end.

Arguments N.add : simpl never.
Arguments N.sub : simpl never.
Arguments N.mul : simpl never.
Arguments N.div : simpl never.
Arguments N.modulo : simpl never.
Arguments N.eqb : simpl never.
Arguments N.ltb : simpl never.
Arguments N.leb : simpl never.
Arguments N.pow : simpl never.
Arguments N.shiftl : simpl never.
Arguments N.shiftr : simpl never.
Arguments N.land : simpl never.
Arguments N.lor : simpl never.
Arguments N.testbit : simpl never.
