(* Base/Leb128.v — unsigned LEB128 as automerge reads and writes it.

   Writer: the `leb128` crate's [write::unsigned] (minimal encoding).
   Reader: rust/automerge/src/storage/parse/leb128.rs [leb128_u64]: at most
   ten bytes, the tenth may only be 0 or 1, an over-long (zero final byte
   after the first) encoding is rejected.  The loop with (res, shift)
   accumulators is written here as the equivalent head recursion; [f] is the
   number of bytes still allowed (10 at entry), [first] is "shift = 0".
   In the Rust the tenth byte's payload is shifted by 63 and truncated; every
   such input with payload > 1 is rejected, so the truncation never reaches an
   [Ok] result and is not modelled. *)
From AM Require Import Base.Prelude.
Local Open Scope N_scope.

Fixpoint udec (first : bool) (f : nat) (l : bytes) : res (N * bytes) :=
  match f with
  | O => Err
  | S f' =>
    match l with
    | [] => Err
    | b :: t =>
      if b <? 128 then
        if Nat.eqb f' 0 && (1 <? b) then Err
        else if negb first && (b =? 0) then Err
        else Ok (b, t)
      else if Nat.eqb f' 0 then Err
      else let* (v, r) := udec false f' t in Ok (b - 128 + 128 * v, r)
    end
  end.

Definition uleb_dec (l : bytes) : res (N * bytes) := udec true 10 l.

Definition uleb_dec_u32 (l : bytes) : res (N * bytes) :=
  let* (v, r) := uleb_dec l in if v <=? u32_max then Ok (v, r) else Err.

Fixpoint uenc (f : nat) (n : N) : bytes :=
  match f with
  | O => []
  | S f' => if n <? 128 then [n] else (n mod 128 + 128) :: uenc f' (n / 128)
  end.

Definition uleb_enc (n : N) : bytes := uenc 10 n.

(* number of values representable in f more bytes: 2 * 128^(f-1), lim 10 = 2^64 *)
Fixpoint lim (f : nat) : N :=
  match f with
  | O => 0
  | S O => 2
  | S f' => 128 * lim f'
  end.

Lemma lim_10 : lim 10 = pow64. Proof. reflexivity. Qed.

Lemma lim_S f : (1 <= f)%nat -> lim (S f) = 128 * lim f.
Proof. destruct f; [lia|reflexivity]. Qed.

Lemma lim_pos f : (1 <= f)%nat -> 2 <= lim f.
Proof.
  induction f as [|[|f] IH]; [lia|cbn; lia|]. intros _. rewrite lim_S by lia. specialize (IH ltac:(lia)). lia.
Qed.

(* A continuation byte b followed by an encoding of v, against the value n of the whole. *)
Lemma ustep b v n : 128 <= b < 256 ->
  b - 128 + 128 * v = n <-> n mod 128 + 128 = b /\ n / 128 = v.
Proof. lia. Qed.

(* the tenth byte may only be 0 or 1: the values below [lim 1] *)
Lemma utenth_spec f b : b < 128 -> Nat.eqb f 0 && (1 <? b) = false <-> b < lim (S f).
Proof.
  intros Hb. destruct f as [|f]; [cbn; lia|].
  rewrite lim_S by lia. pose proof (lim_pos (S f) ltac:(lia)). cbn [Nat.eqb andb]. lia.
Qed.

Lemma udec_uenc f : forall first n rest,
  n < lim f -> (first = false -> 1 <= n) ->
  udec first f (uenc f n ++ rest) = Ok (n, rest).
Proof.
  induction f as [|f IH]; intros first n rest Hn Hfirst; [cbn in Hn; lia|].
  cbn [udec uenc].
  destruct (n <? 128) eqn:E; cbn [app].
  - rewrite E, (proj2 (utenth_spec f n ltac:(lia)) Hn).
    destruct first; cbn [negb andb]; [reflexivity|]. specialize (Hfirst eq_refl).
    assert ((n =? 0) = false) as -> by lia. reflexivity.
  - assert ((n mod 128 + 128 <? 128) = false) as -> by lia.
    destruct (Nat.eqb f 0) eqn:Ef.
    + apply Nat.eqb_eq in Ef. subst f. cbn in Hn. lia.
    + apply Nat.eqb_neq in Ef. rewrite lim_S in Hn by lia.
      rewrite (IH _ (n / 128)); [|lia|intros _; lia].
      cbn [bind]. f_equal. f_equal. apply ustep; [lia|auto].
Qed.

Theorem uleb_roundtrip n rest : n < pow64 -> uleb_dec (uleb_enc n ++ rest) = Ok (n, rest).
Proof.
  intros H. unfold uleb_dec, uleb_enc. apply udec_uenc; [rewrite lim_10; exact H|discriminate].
Qed.

Lemma udec_canonical f : forall first l n rest,
  wf_bytes l -> udec first f l = Ok (n, rest) ->
  l = uenc f n ++ rest /\ n < lim f /\ (first = false -> 1 <= n).
Proof.
  induction f as [|f IH]; intros first l n rest Hwf H; [discriminate|].
  cbn [udec] in H. destruct l as [|b t]; [discriminate|].
  inversion Hwf as [|? ? Hb Ht]; subst. unfold wf_byte in Hb. cbn [uenc].
  destruct (b <? 128) eqn:E.
  - destruct (Nat.eqb f 0 && (1 <? b)) eqn:E1; [discriminate|]. apply utenth_spec in E1; [|lia].
    destruct (negb first && (b =? 0)) eqn:E2; [discriminate|].
    inversion H; subst. rewrite E. split; [reflexivity|]. split; [exact E1|]. intros ->. cbn in E2. lia.
  - destruct (Nat.eqb f 0) eqn:Ef; [discriminate|]. apply Nat.eqb_neq in Ef.
    apply bind_ok in H as ([v r] & Ed & [= <- <-]).
    apply IH in Ed as (-> & Hv & Hv1); [|exact Ht]. specialize (Hv1 eq_refl).
    assert ((b - 128 + 128 * v <? 128) = false) as -> by lia.
    destruct (proj1 (ustep b v _ ltac:(lia)) eq_refl) as [-> ->].
    rewrite lim_S by lia. repeat split; [lia|intros _; lia].
Qed.

Theorem uleb_canonical l n rest :
  wf_bytes l -> uleb_dec l = Ok (n, rest) -> l = uleb_enc n ++ rest /\ n < pow64.
Proof.
  intros Hwf H. apply udec_canonical in H; [|exact Hwf].
  destruct H as (H1 & H2 & _). rewrite lim_10 in H2. auto.
Qed.

Lemma udec_no_panic f : forall first l, udec first f l <> Panic.
Proof.
  induction f as [|f IH]; intros first l; cbn [udec]; [discriminate|].
  destruct l as [|b t]; [discriminate|].
  destruct (b <? 128).
  - destruct (Nat.eqb f 0 && (1 <? b)); [discriminate|].
    destruct (negb first && (b =? 0)); discriminate.
  - destruct (Nat.eqb f 0); [discriminate|].
    apply bind_no_panic; [apply IH|]. intros [v r] _. discriminate.
Qed.

Lemma uleb_dec_no_panic l : uleb_dec l <> Panic.
Proof. apply udec_no_panic. Qed.

Lemma uleb_dec_u32_no_panic l : uleb_dec_u32 l <> Panic.
Proof.
  apply bind_no_panic; [apply uleb_dec_no_panic|]. intros [v r] _. destruct (v <=? u32_max); discriminate.
Qed.

Lemma udec_rest f : forall first l n rest,
  udec first f l = Ok (n, rest) -> exists pre, l = pre ++ rest /\ (1 <= length pre <= f)%nat.
Proof.
  induction f as [|f IH]; intros first l n rest H; [discriminate|].
  cbn [udec] in H. destruct l as [|b t]; [discriminate|].
  destruct (b <? 128).
  - destruct (Nat.eqb f 0 && (1 <? b)); [discriminate|].
    destruct (negb first && (b =? 0)); [discriminate|].
    inversion H; subst. exists [n]. cbn. split; [reflexivity|lia].
  - destruct (Nat.eqb f 0); [discriminate|].
    apply bind_ok in H as ([v r] & Ed & H). inversion H; subst.
    apply IH in Ed as (pre & -> & Hl). exists (b :: pre). cbn. split; [reflexivity|lia].
Qed.

Lemma uleb_dec_rest l n rest :
  uleb_dec l = Ok (n, rest) -> exists pre, l = pre ++ rest /\ (1 <= length pre <= 10)%nat.
Proof. apply udec_rest. Qed.

Lemma uleb_dec_u32_rest l n rest :
  uleb_dec_u32 l = Ok (n, rest) ->
  n <= u32_max /\ exists pre, l = pre ++ rest /\ (1 <= length pre <= 10)%nat.
Proof.
  intros H. apply bind_ok in H as ([v r] & E & H).
  destruct (v <=? u32_max) eqn:Ev; [|discriminate]. inversion H; subst.
  split; [lia|]. exact (uleb_dec_rest _ _ _ E).
Qed.

Lemma uenc_wf f n : wf_bytes (uenc f n).
Proof.
  revert n; induction f as [|f IH]; intros n; cbn [uenc]; [constructor|].
  destruct (n <? 128) eqn:E.
  - constructor; [unfold wf_byte; lia|constructor].
  - constructor; [unfold wf_byte; lia|apply IH].
Qed.

Lemma uleb_enc_wf n : wf_bytes (uleb_enc n).
Proof. apply uenc_wf. Qed.

Lemma uenc_nonempty f n : (1 <= f)%nat -> uenc f n <> [].
Proof. destruct f; [lia|]. intros _. cbn [uenc]. destruct (n <? 128); discriminate. Qed.

Lemma uleb_enc_nonempty n : uleb_enc n <> [].
Proof. apply uenc_nonempty. lia. Qed.

Lemma uenc_length f n : (length (uenc f n) <= f)%nat.
Proof.
  revert n; induction f as [|f IH]; intros n; cbn [uenc]; [cbn; lia|].
  destruct (n <? 128); cbn [length]; [lia|]. specialize (IH (n / 128)). lia.
Qed.
