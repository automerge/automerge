(* Base/Order.v — total orders used by the CRDT model: lexicographic order on
   byte strings (actor ids), operation ids (counter, then actor), insertion
   sort, and the fact every order-independence theorem rests on: two sorted
   lists with the same elements are equal. *)
From AM Require Import Base.Prelude.
From AM Require Export Base.ListFacts.
From Coq Require Import Sorting.Sorted.

Section Cmp.
  Context {A : Type} (cmp : A -> A -> comparison).

  Record TotalCmp : Prop := {
    cmp_eq : forall a b, cmp a b = Eq <-> a = b;
    cmp_antisym : forall a b, cmp b a = CompOpp (cmp a b);
    cmp_trans : forall a b c, cmp a b = Lt -> cmp b c = Lt -> cmp a c = Lt
  }.

  Definition ltb (a b : A) : bool := match cmp a b with Lt => true | _ => false end.
  Definition leb (a b : A) : bool := match cmp a b with Gt => false | _ => true end.
  Definition eqb_of (a b : A) : bool := match cmp a b with Eq => true | _ => false end.

  Fixpoint insert_sorted (x : A) (l : list A) : list A :=
    match l with
    | [] => [x]
    | y :: t => if leb x y then x :: y :: t else y :: insert_sorted x t
    end.

  Fixpoint isort (l : list A) : list A :=
    match l with
    | [] => []
    | x :: t => insert_sorted x (isort t)
    end.

  Definition lt (a b : A) : Prop := cmp a b = Lt.
  Definition le (a b : A) : Prop := cmp a b <> Gt.
  (* each element is [le] all later ones *)
  Definition sorted (l : list A) : Prop := StronglySorted le l.

  Lemma insert_sorted_perm x l : Permutation (x :: l) (insert_sorted x l).
  Proof.
    induction l as [|y t IH]; cbn; [reflexivity|].
    destruct (leb x y); [reflexivity|].
    rewrite perm_swap. apply perm_skip, IH.
  Qed.

  Lemma isort_perm l : Permutation l (isort l).
  Proof.
    induction l as [|x t IH]; cbn; [reflexivity|].
    rewrite <- insert_sorted_perm. apply perm_skip, IH.
  Qed.

  Lemma In_isort x l : In x (isort l) <-> In x l.
  Proof. split; apply Permutation_in; [symmetry|]; apply isort_perm. Qed.

  (* What sorting needs of [cmp] is less than [TotalCmp]: a transitive [le] whose failures are
     reversed, and for uniqueness antisymmetry on the elements at hand.  Sorting by a key (below)
     has the first two but not [cmp_eq]. *)
  Section Preorder.
    Hypothesis le_tr : forall a b c, le a b -> le b c -> le a c.
    Hypothesis gt_rev : forall a b, cmp a b = Gt -> le b a.

    Lemma insert_sorted_sorted_pre x l : sorted l -> sorted (insert_sorted x l).
    Proof.
      unfold sorted. induction l as [|y t IH]; intros H; cbn.
      - constructor; constructor.
      - inversion H as [|? ? Ht Hy]; subst. unfold leb. destruct (cmp x y) eqn:E.
        1,2: assert (le x y) by (unfold le; congruence); constructor; [exact H|];
          constructor; [assumption|]; eapply Forall_impl; [|exact Hy]; intros z Hz; eapply le_tr; eauto.
        constructor; [apply IH, Ht|].
        eapply Permutation_Forall; [apply insert_sorted_perm|]. constructor; [apply gt_rev, E|assumption].
    Qed.

    Lemma isort_sorted_pre l : sorted (isort l).
    Proof. induction l as [|x t IH]; cbn; [constructor|]. apply insert_sorted_sorted_pre, IH. Qed.

    Lemma sorted_perm_unique_on l1 : forall l2,
      (forall a b, In a l1 -> In b l1 -> le a b -> le b a -> a = b) ->
      sorted l1 -> sorted l2 -> Permutation l1 l2 -> l1 = l2.
    Proof.
      unfold sorted. induction l1 as [|x t IH]; intros l2 AS S1 S2 P.
      - apply Permutation_nil in P. subst. reflexivity.
      - destruct l2 as [|y u]; [apply Permutation_sym, Permutation_nil in P; discriminate|].
        inversion S1 as [|? ? St Hx]; subst. inversion S2 as [|? ? Su Hy]; subst.
        assert (x = y).
        { assert (In y (x :: t)) as I2 by (eapply Permutation_in; [apply Permutation_sym, P|left; reflexivity]).
          assert (In x (y :: u)) as I1 by (eapply Permutation_in; [exact P|left; reflexivity]).
          destruct I1 as [->|I1]; [reflexivity|]. destruct I2 as [->|I2]; [reflexivity|].
          rewrite Forall_forall in Hx, Hy. apply AS; cbn; auto. }
        subst y. f_equal. apply IH; auto; [|eapply Permutation_cons_inv, P].
        intros a b Ha Hb. apply AS; right; assumption.
    Qed.
  End Preorder.

  Lemma isort_id l : sorted l -> isort l = l.
  Proof.
    induction 1 as [|x t Ht IH Hall]; [reflexivity|]. cbn [isort]. rewrite IH.
    destruct t as [|y t']; [reflexivity|]. cbn [insert_sorted].
    inversion Hall as [|? ? Hxy _]; subst. unfold le in Hxy. unfold leb.
    destruct (cmp x y); try reflexivity. contradiction.
  Qed.

  Hypothesis T : TotalCmp.

  Lemma cmp_refl a : cmp a a = Eq.
  Proof. apply (cmp_eq T). reflexivity. Qed.

  Lemma cmp_gt_lt a b : cmp a b = Gt <-> cmp b a = Lt.
  Proof.
    rewrite (cmp_antisym T a b).
    destruct (cmp a b); cbn; split; intros H; try discriminate H; reflexivity.
  Qed.

  Lemma eqb_of_spec a b : eqb_of a b = true <-> a = b.
  Proof. unfold eqb_of. rewrite <- (cmp_eq T). destruct (cmp a b); split; congruence. Qed.

  Lemma le_trans a b c : le a b -> le b c -> le a c.
  Proof.
    unfold le. intros H1 H2 H3.
    destruct (cmp a b) eqn:E1; [|clear H1|congruence].
    - apply (cmp_eq T) in E1. subst. congruence.
    - destruct (cmp b c) eqn:E2; [|clear H2|congruence].
      + apply (cmp_eq T) in E2. subst. congruence.
      + pose proof (cmp_trans T _ _ _ E1 E2). congruence.
  Qed.

  Lemma gt_le a b : cmp a b = Gt -> le b a.
  Proof. unfold le. intros H. apply cmp_gt_lt in H. congruence. Qed.

  Lemma le_total a b : le a b \/ le b a.
  Proof. destruct (cmp a b) eqn:E; [left|left|right; apply gt_le, E]; unfold le; congruence. Qed.

  Lemma le_antisym a b : le a b -> le b a -> a = b.
  Proof.
    unfold le. intros H1 H2. destruct (cmp a b) eqn:E; [apply (cmp_eq T), E| |congruence].
    exfalso. apply H2. apply cmp_gt_lt. exact E.
  Qed.

  Lemma isort_sorted l : sorted (isort l).
  Proof. apply isort_sorted_pre; [exact le_trans|exact gt_le]. Qed.

  Lemma sorted_perm_unique l1 : forall l2,
    sorted l1 -> sorted l2 -> Permutation l1 l2 -> l1 = l2.
  Proof. intros l2. apply sorted_perm_unique_on. intros a b _ _. apply le_antisym. Qed.

  Theorem isort_perm_eq l1 l2 : Permutation l1 l2 -> isort l1 = isort l2.
  Proof.
    intros P. apply sorted_perm_unique; try apply isort_sorted.
    rewrite <- (isort_perm l1), <- (isort_perm l2). exact P.
  Qed.
End Cmp.
Arguments cmp_eq {A cmp} _.
Arguments cmp_antisym {A cmp} _.
Arguments cmp_trans {A cmp} _.

(* Sorting by a key: the comparison is total on keys only, so two different
   elements with one key compare [Eq].  Among elements whose keys are pairwise
   different the sorted list is still unique. *)
Section KeySort.
  Context {A K : Type} (key : A -> K) (cmpK : K -> K -> comparison).
  Hypothesis TK : TotalCmp cmpK.
  Definition kcmp (a b : A) : comparison := cmpK (key a) (key b).
  Definition kle (a b : A) : Prop := le cmpK (key a) (key b).
  Definition ksorted (l : list A) : Prop := StronglySorted kle l.

  (* [kle] is [le kcmp] and [ksorted] is [sorted kcmp], by unfolding *)
  Lemma kisort_sorted l : ksorted (isort kcmp l).
  Proof.
    apply (isort_sorted_pre kcmp).
    - intros a b c. apply (le_trans cmpK TK).
    - intros a b. apply (gt_le cmpK TK).
  Qed.

  Lemma ksorted_perm_unique l1 l2 :
    NoDup (map key l1) -> ksorted l1 -> ksorted l2 -> Permutation l1 l2 -> l1 = l2.
  Proof.
    intros ND. apply (sorted_perm_unique_on kcmp). intros a b Ha Hb H1 H2.
    apply (NoDup_map_inj key l1 a b ND Ha Hb), (le_antisym cmpK TK); assumption.
  Qed.

  Theorem kisort_perm_eq l1 l2 :
    NoDup (map key l1) -> Permutation l1 l2 -> isort kcmp l1 = isort kcmp l2.
  Proof.
    intros ND P. apply ksorted_perm_unique; try apply kisort_sorted.
    - eapply Permutation_NoDup; [|exact ND]. apply Permutation_map, isort_perm.
    - rewrite <- (isort_perm kcmp l1), <- (isort_perm kcmp l2). exact P.
  Qed.
End KeySort.

Fixpoint bytes_cmp (a b : list N) : comparison :=
  match a, b with
  | [], [] => Eq
  | [], _ :: _ => Lt
  | _ :: _, [] => Gt
  | x :: a', y :: b' => match N.compare x y with Eq => bytes_cmp a' b' | c => c end
  end.

Lemma bytes_cmp_total : TotalCmp bytes_cmp.
Proof.
  split.
  - induction a as [|x a IH]; intros [|y b]; cbn; try (split; congruence).
    destruct (N.compare x y) eqn:E.
    + apply N.compare_eq in E. subst. rewrite IH. split; congruence.
    + split; [discriminate|]. intros H; inversion H; subst. rewrite N.compare_refl in E. discriminate.
    + split; [discriminate|]. intros H; inversion H; subst. rewrite N.compare_refl in E. discriminate.
  - induction a as [|x a IH]; intros [|y b]; cbn; try reflexivity.
    rewrite (N.compare_antisym x y). destruct (N.compare x y); cbn; auto.
  - induction a as [|x a IH]; intros [|y b] [|z c]; cbn; try congruence.
    destruct (N.compare x y) eqn:E1; destruct (N.compare y z) eqn:E2; try congruence.
    + apply N.compare_eq in E1, E2. subst. rewrite N.compare_refl. apply IH.
    + apply N.compare_eq in E1. subst. rewrite E2. auto.
    + apply N.compare_eq in E2. subst. rewrite E1. auto.
    + intros _ _. rewrite N.compare_lt_iff in *. assert (x < z)%N by lia.
      apply N.compare_lt_iff in H. rewrite H. reflexivity.
Qed.

Definition opid := (N * list N)%type.

Definition opid_cmp (a b : opid) : comparison :=
  match N.compare (fst a) (fst b) with Eq => bytes_cmp (snd a) (snd b) | c => c end.

Lemma opid_cmp_total : TotalCmp opid_cmp.
Proof.
  pose proof bytes_cmp_total as B. split.
  - intros [c1 a1] [c2 a2]. unfold opid_cmp. cbn.
    destruct (N.compare c1 c2) eqn:E.
    + apply N.compare_eq in E. subst. rewrite (cmp_eq B). split; congruence.
    + split; [discriminate|]. intros H; inversion H; subst. rewrite N.compare_refl in E. discriminate.
    + split; [discriminate|]. intros H; inversion H; subst. rewrite N.compare_refl in E. discriminate.
  - intros [c1 a1] [c2 a2]. unfold opid_cmp. cbn. rewrite (N.compare_antisym c1 c2).
    destruct (N.compare c1 c2); cbn; auto. apply (cmp_antisym B).
  - intros [c1 a1] [c2 a2] [c3 a3]. unfold opid_cmp. cbn.
    destruct (N.compare c1 c2) eqn:E1; destruct (N.compare c2 c3) eqn:E2; try congruence.
    + apply N.compare_eq in E1, E2. subst. rewrite N.compare_refl. apply (cmp_trans B).
    + apply N.compare_eq in E1. subst. rewrite E2. auto.
    + apply N.compare_eq in E2. subst. rewrite E1. auto.
    + intros _ _. rewrite N.compare_lt_iff in *. assert (c1 < c3)%N by lia.
      apply N.compare_lt_iff in H. rewrite H. reflexivity.
Qed.

Definition opid_eqb (a b : opid) : bool := eqb_of opid_cmp a b.
Definition opid_ltb (a b : opid) : bool := ltb opid_cmp a b.
Lemma opid_eqb_spec a b : opid_eqb a b = true <-> a = b.
Proof. apply eqb_of_spec, opid_cmp_total. Qed.

Lemma opid_eqb_refl a : opid_eqb a a = true.
Proof. apply opid_eqb_spec. reflexivity. Qed.

Lemma opid_eqb_false a b : a <> b -> opid_eqb a b = false.
Proof. intros H. destruct (opid_eqb a b) eqn:E; [|reflexivity]. apply opid_eqb_spec in E. contradiction. Qed.

Lemma N_cmp_total : TotalCmp N.compare.
Proof.
  split.
  - intros a b. apply N.compare_eq_iff.
  - intros a b. apply N.compare_antisym.
  - intros a b c. rewrite !N.compare_lt_iff. lia.
Qed.
