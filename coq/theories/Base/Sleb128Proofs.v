(* Base/Sleb128Proofs.v — the signed LEB128 reader of storage/parse/leb128.rs and the writer of
   the `leb128` crate are inverse on every i64, the reader accepts ONLY the writer's output
   (canonical form), consumes 1..10 bytes and never panics. *)
From AM Require Import Base.Prelude Base.Leb128 Base.Sleb128.
Local Open Scope Z_scope.

(* values representable in f more bytes: [-slim f, slim f), slim 10 = 2^63 *)
Fixpoint slim (f : nat) : Z :=
  match f with
  | O => 0
  | S O => 1
  | S f' => 128 * slim f'
  end.

Lemma slim_10 : slim 10 = 9223372036854775808. Proof. reflexivity. Qed.

Lemma slim_S f : (1 <= f)%nat -> slim (S f) = 128 * slim f.
Proof. destruct f; [lia|reflexivity]. Qed.

Lemma slim_pos f : (1 <= f)%nat -> 1 <= slim f.
Proof.
  induction f as [|f IH]; [lia|]. intros _. destruct f as [|f]; [cbn; lia|].
  rewrite slim_S by lia. specialize (IH ltac:(lia)). lia.
Qed.

(* A continuation byte b followed by an encoding of v, against the value z of the whole. *)
Lemma sstep b v z : (128 <= b < 256)%N ->
  Z.of_N (b - 128) + 128 * v = z <-> Z.to_N (z mod 128 + 128) = b /\ z / 128 = v.
Proof. lia. Qed.

Lemma sfinal_spec b z : (b < 128)%N ->
  sfinal b = z <-> -64 <= z < 64 /\ Z.to_N (z mod 128) = b.
Proof. intros Hb. unfold sfinal. destruct (b <? 64)%N eqn:E; lia. Qed.

(* the tenth byte may only be 0x00 or 0x7f: the values that fit [slim 1]; before the tenth any
   final byte fits *)
Lemma tenth_spec f b : (b < 128)%N ->
  Nat.eqb f 0 && negb (b =? 0)%N && negb (b =? 127)%N = false <->
  - slim (S f) <= sfinal b < slim (S f).
Proof.
  intros Hb. unfold sfinal. destruct f as [|f].
  - cbn. destruct (b <? 64)%N eqn:E; lia.
  - rewrite slim_S by lia. pose proof (slim_pos (S f) ltac:(lia)). cbn [Nat.eqb andb].
    destruct (b <? 64)%N eqn:E; lia.
Qed.

(* the previous (continuation) byte p and the value z that follows it do not form a number that
   fits the sign-extended 7 bits of p alone: exactly what the over-long test rejects *)
Definition prev_ok (prev : option N) (z : Z) : Prop :=
  forall p, prev = Some p -> ~ (-64 <= Z.of_N p - 128 + 128 * z < 64).

Lemma overlong_spec p b : (128 <= p < 256)%N -> (b < 128)%N ->
  ((b =? 0)%N && negb (bit6 p)) || ((b =? 127)%N && bit6 p) = false <->
  prev_ok (Some p) (sfinal b).
Proof.
  intros Hp Hb. unfold prev_ok, bit6, sfinal. split.
  - intros H ? [= <-]. destruct (b <? 64)%N eqn:E; lia.
  - intros H. specialize (H p eq_refl). destruct (b <? 64)%N eqn:E; lia.
Qed.

Definition cont_byte (prev : option N) : Prop := forall p, prev = Some p -> (128 <= p < 256)%N.

Lemma sdec_senc f : forall prev z rest,
  - slim f <= z < slim f -> cont_byte prev -> prev_ok prev z ->
  sdec prev f (senc f z ++ rest) = Ok (z, rest).
Proof.
  induction f as [|f IH]; intros prev z rest Hz Hc Hp; [cbn in Hz; lia|].
  cbn [sdec senc].
  destruct ((-64 <=? z) && (z <? 64)) eqn:E; cbn [app].
  - assert (Hb : (Z.to_N (z mod 128) < 128)%N) by lia.
    assert (Hv : sfinal (Z.to_N (z mod 128)) = z) by (apply sfinal_spec; lia).
    rewrite (proj2 (N.ltb_lt _ _) Hb), (proj2 (tenth_spec f _ Hb)), Hv by (rewrite Hv; exact Hz).
    destruct prev as [p|]; [|reflexivity].
    rewrite (proj2 (overlong_spec p _ (Hc p eq_refl) Hb)) by (rewrite Hv; exact Hp). reflexivity.
  - assert ((Z.to_N (z mod 128 + 128) <? 128)%N = false) as -> by lia.
    destruct (Nat.eqb f 0) eqn:Ef.
    + apply Nat.eqb_eq in Ef. subst f. cbn in Hz. lia.
    + apply Nat.eqb_neq in Ef. rewrite slim_S in Hz by lia.
      rewrite (IH _ (z / 128)); [| lia | intros ? [= <-]; lia | intros ? [= <-]; lia].
      cbn [bind]. f_equal. f_equal. apply sstep; [lia|auto].
Qed.

Theorem sleb_roundtrip z rest : in_i64 z -> sleb_dec (sleb_enc z ++ rest) = Ok (z, rest).
Proof.
  unfold in_i64, i64_min, i64_max. intros H. unfold sleb_dec, sleb_enc.
  apply sdec_senc; [rewrite slim_10; lia|discriminate|discriminate].
Qed.

Lemma sdec_canonical f : forall prev l z rest,
  wf_bytes l -> cont_byte prev ->
  sdec prev f l = Ok (z, rest) ->
  l = senc f z ++ rest /\ - slim f <= z < slim f /\ prev_ok prev z.
Proof.
  induction f as [|f IH]; intros prev l z rest Hwf Hc H; [discriminate|].
  cbn [sdec] in H. destruct l as [|b t]; [discriminate|].
  inversion Hwf as [|? ? Hb Ht]; subst. unfold wf_byte in Hb. cbn [senc].
  destruct (b <? 128)%N eqn:E.
  - apply N.ltb_lt in E.
    destruct (Nat.eqb f 0 && negb (b =? 0)%N && negb (b =? 127)%N) eqn:E1; [discriminate|].
    apply tenth_spec in E1; [|exact E].
    assert (Hfin : sfinal b = z /\ t = rest /\ prev_ok prev (sfinal b)).
    { destruct prev as [p|].
      - destruct (((b =? 0)%N && negb (bit6 p)) || ((b =? 127)%N && bit6 p)) eqn:E2; [discriminate|].
        apply overlong_spec in E2; [|exact (Hc p eq_refl)|exact E]. inversion H; auto.
      - inversion H. repeat split. discriminate. }
    destruct Hfin as (Hz & -> & Hp). rewrite Hz in E1, Hp.
    apply sfinal_spec in Hz as [Hr ->]; [|exact E].
    rewrite (proj2 (andb_true_iff _ _)) by lia. auto.
  - destruct (Nat.eqb f 0) eqn:Ef; [discriminate|]. apply Nat.eqb_neq in Ef.
    apply bind_ok in H as ([v r] & Ed & [= <- <-]).
    apply IH in Ed as (-> & Hv & Hpv); [|exact Ht|intros ? [= <-]; lia].
    specialize (Hpv b eq_refl).
    destruct (proj1 (sstep b v _ ltac:(lia)) eq_refl) as [-> ->].
    rewrite (proj2 (andb_false_iff _ _)) by lia.
    rewrite slim_S by lia. repeat split; [lia|lia|]. intros p ->. specialize (Hc p eq_refl). lia.
Qed.

Theorem sleb_canonical l z rest :
  wf_bytes l -> sleb_dec l = Ok (z, rest) -> l = sleb_enc z ++ rest /\ in_i64 z.
Proof.
  intros Hwf H. apply sdec_canonical in H; [|exact Hwf|discriminate].
  destruct H as (H1 & H2 & _). rewrite slim_10 in H2. split; [exact H1|].
  unfold in_i64, i64_min, i64_max. lia.
Qed.

Lemma sdec_no_panic f : forall prev l, sdec prev f l <> Panic.
Proof.
  induction f as [|f IH]; intros prev l; cbn [sdec]; [discriminate|].
  destruct l as [|b t]; [discriminate|].
  destruct (b <? 128)%N.
  - destruct (Nat.eqb f 0 && negb (b =? 0)%N && negb (b =? 127)%N); [discriminate|].
    destruct prev as [p|]; [|discriminate].
    destruct (((b =? 0)%N && negb (bit6 p)) || ((b =? 127)%N && bit6 p)); discriminate.
  - destruct (Nat.eqb f 0); [discriminate|].
    apply bind_no_panic; [apply IH|]. intros [v r] _. discriminate.
Qed.

Lemma sleb_dec_no_panic l : sleb_dec l <> Panic.
Proof. apply sdec_no_panic. Qed.

Lemma sdec_rest f : forall prev l n rest,
  sdec prev f l = Ok (n, rest) -> exists pre, l = pre ++ rest /\ (1 <= length pre <= f)%nat.
Proof.
  induction f as [|f IH]; intros prev l n rest H; [discriminate|].
  cbn [sdec] in H. destruct l as [|b t]; [discriminate|].
  destruct (b <? 128)%N.
  - destruct (Nat.eqb f 0 && negb (b =? 0)%N && negb (b =? 127)%N); [discriminate|].
    assert (rest = t) as ->.
    { destruct prev as [p|].
      - destruct (((b =? 0)%N && negb (bit6 p)) || ((b =? 127)%N && bit6 p)); [discriminate|].
        inversion H; reflexivity.
      - inversion H; reflexivity. }
    exists [b]. cbn [app length]. split; [reflexivity|lia].
  - destruct (Nat.eqb f 0); [discriminate|].
    apply bind_ok in H as ([v r] & Ed & H). inversion H; subst.
    apply IH in Ed as (pre & -> & Hl). exists (b :: pre). cbn [app length]. split; [reflexivity|lia].
Qed.

Lemma senc_wf f z : wf_bytes (senc f z).
Proof.
  revert z; induction f as [|f IH]; intros z; cbn [senc]; [constructor|].
  destruct ((-64 <=? z) && (z <? 64)) eqn:E.
  - constructor; [unfold wf_byte; lia|constructor].
  - constructor; [unfold wf_byte; lia|apply IH].
Qed.

Lemma sleb_enc_wf z : wf_bytes (sleb_enc z).
Proof. apply senc_wf. Qed.
