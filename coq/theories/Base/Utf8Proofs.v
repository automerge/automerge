(* Base/Utf8Proofs.v — the UTF-8 validators of the model accept exactly the well-formed strings.

   - [decode_sound] / [decode_complete]: the textbook decoder [utf8_decode] of Base/Utf8Spec.v
     returns [Some cps] exactly on the encodings of scalar values, and [cps] are those values;
   - [rle_valid_decodes] / [chg_valid_decodes]: each Table 3-7 automaton (Hexane/Rle.v,
     Store/ChangeChunk.v) accepts exactly when the decoder returns [Some _]; hence they agree
     with each other and with [well_formed] ([rle_valid_iff_well_formed], [chg_valid_iff_well_formed]);
   - consequences for the model decoders that call them: [str_dec], [str_load] (every string
     in a loaded column), [parse_body] (the change message).
   No hypothesis on the byte values is needed: a "byte" >= 256 is rejected by every party. *)
From AM Require Import Base.Prelude Base.Utf8Spec.
From AM Require Hexane.Rle Hexane.RleProofs Store.ChangeChunk.
Local Open Scope N_scope.

(* decide every test [if c then _ else _] of the goal *)
Ltac split_ifs :=
  repeat match goal with |- context [if ?c then _ else _] => destruct c eqn:? end.

Lemma is_some_ocons {A} (x : A) o : is_some (ocons x o) = is_some o.
Proof. destruct o; reflexivity. Qed.

(* Lead and continuation bytes are written lo + z below, so that the payloads [cp2], [cp3],
   [cp4] lose their subtractions and become the digits z, y, x in base 64. *)
Lemma add_sub_l a b : a + b - a = b.
Proof. rewrite N.add_comm. apply N.add_sub. Qed.

Lemma le_shift lo b : lo <= b -> exists z, b = lo + z.
Proof. exists (b - lo). lia. Qed.

Lemma is_cont_shift b : is_cont b = true -> exists x, b = 128 + x /\ x < 64.
Proof. unfold is_cont. exists (b - 128). lia. Qed.

(* the second-byte ranges of Table 3-7 lie within the continuation bytes *)
Lemma range_not_cont lo hi b :
  is_cont b = false -> 128 <= lo -> hi <= 191 -> (lo <=? b) && (b <=? hi) = false.
Proof. unfold is_cont. lia. Qed.

(* positional notation in base 64: the only place where division is needed *)
Lemma digits c : exists u z y x,
  c = u * 262144 + z * 4096 + y * 64 + x /\ z < 64 /\ y < 64 /\ x < 64.
Proof. exists (c / 262144), ((c / 4096) mod 64), ((c / 64) mod 64), (c mod 64). lia. Qed.

Lemma encode2 z x : 2 <= z -> z < 32 -> x < 64 -> utf8_encode (z * 64 + x) = [192 + z; 128 + x].
Proof.
  intros. unfold utf8_encode.
  replace (z * 64 + x <? 128) with false by lia. replace (z * 64 + x <? 2048) with true by lia.
  repeat f_equal; lia.
Qed.

Lemma encode3 z y x : z < 16 -> y < 64 -> x < 64 -> 2048 <= z * 4096 + y * 64 + x ->
  utf8_encode (z * 4096 + y * 64 + x) = [224 + z; 128 + y; 128 + x].
Proof.
  intros. unfold utf8_encode.
  replace (_ <? 128) with false by lia. replace (_ <? 2048) with false by lia.
  replace (_ <? 65536) with true by lia. repeat f_equal; lia.
Qed.

Lemma encode4 u z y x : z < 64 -> y < 64 -> x < 64 ->
  65536 <= u * 262144 + z * 4096 + y * 64 + x ->
  utf8_encode (u * 262144 + z * 4096 + y * 64 + x) = [240 + u; 128 + z; 128 + y; 128 + x].
Proof.
  intros. unfold utf8_encode.
  replace (_ <? 128) with false by lia. replace (_ <? 2048) with false by lia.
  replace (_ <? 65536) with false by lia. repeat f_equal; lia.
Qed.

Lemma ok2_sound b0 b1 : ok2 b0 b1 = true ->
  is_scalar (cp2 b0 b1) = true /\ utf8_encode (cp2 b0 b1) = [b0; b1].
Proof.
  unfold ok2. intros H. repeat (apply andb_true_iff in H as [H ?]).
  destruct (le_shift 192 b0) as [z ->]; [lia|].
  destruct (is_cont_shift b1) as (x & -> & Hx); [assumption|].
  unfold cp2 in *. rewrite !add_sub_l in *.
  split; [unfold is_scalar; lia|apply encode2; lia].
Qed.

Lemma ok3_sound b0 b1 b2 : ok3 b0 b1 b2 = true ->
  is_scalar (cp3 b0 b1 b2) = true /\ utf8_encode (cp3 b0 b1 b2) = [b0; b1; b2].
Proof.
  unfold ok3. intros H. repeat (apply andb_true_iff in H as [H ?]).
  destruct (le_shift 224 b0) as [z ->]; [lia|].
  destruct (is_cont_shift b1) as (y & -> & Hy); [assumption|].
  destruct (is_cont_shift b2) as (x & -> & Hx); [assumption|].
  unfold cp3 in *. rewrite !add_sub_l in *. split; [assumption|apply encode3; lia].
Qed.

Lemma ok4_sound b0 b1 b2 b3 : ok4 b0 b1 b2 b3 = true ->
  is_scalar (cp4 b0 b1 b2 b3) = true /\ utf8_encode (cp4 b0 b1 b2 b3) = [b0; b1; b2; b3].
Proof.
  unfold ok4. intros H. repeat (apply andb_true_iff in H as [H ?]).
  destruct (le_shift 240 b0) as [u ->]; [lia|].
  destruct (is_cont_shift b1) as (z & -> & Hz); [assumption|].
  destruct (is_cont_shift b2) as (y & -> & Hy); [assumption|].
  destruct (is_cont_shift b3) as (x & -> & Hx); [assumption|].
  unfold cp4 in *. rewrite !add_sub_l in *. split; [assumption|apply encode4; lia].
Qed.

Lemma decode_encode_one c r : is_scalar c = true ->
  utf8_decode (utf8_encode c ++ r) = ocons c (utf8_decode r).
Proof.
  intros Hs.
  destruct (c <? 128) eqn:E1.
  { unfold utf8_encode. rewrite E1. cbn [app utf8_decode]. rewrite E1. reflexivity. }
  destruct (digits c) as (u & z & y & x & Hc & Hz & Hy & Hx).
  destruct (c <? 2048) eqn:E2.
  { assert (c = y * 64 + x) as -> by lia.
    rewrite encode2 by lia. cbn [app utf8_decode].
    replace (192 + y <? 128) with false by lia. replace (192 + y <? 224) with true by lia.
    unfold ok2, is_cont, cp2. rewrite !add_sub_l.
    replace (_ && _) with true by lia. reflexivity. }
  destruct (c <? 65536) eqn:E3.
  { assert (c = z * 4096 + y * 64 + x) as -> by lia.
    rewrite encode3 by lia. cbn [app utf8_decode].
    replace (224 + z <? 128) with false by lia. replace (224 + z <? 224) with false by lia.
    replace (224 + z <? 240) with true by lia.
    unfold ok3, is_cont, cp3. rewrite !add_sub_l, Hs.
    replace (_ && _) with true by lia. reflexivity. }
  subst c. rewrite encode4 by lia. cbn [app utf8_decode].
  replace (240 + u <? 128) with false by lia. replace (240 + u <? 224) with false by lia.
  replace (240 + u <? 240) with false by lia.
  unfold ok4, is_cont, cp4. rewrite !add_sub_l, Hs.
  replace (_ && _) with true by (unfold is_scalar in Hs; lia). reflexivity.
Qed.

(* Table 3-7: for a lead byte of each length, the byte ranges that make the decoded value
   not over-long, not a surrogate and at most 0x10FFFF *)
Lemma ok2_table b0 b1 : 128 <= b0 -> b0 < 224 -> ok2 b0 b1 = (194 <=? b0) && is_cont b1.
Proof.
  intros L0 L1. unfold ok2.
  destruct (is_cont b1) eqn:E1; [|rewrite !andb_false_r; reflexivity].
  apply is_cont_shift in E1. destruct E1 as (x & -> & Hx).
  destruct (192 <=? b0) eqn:E0; [|lia].
  apply N.leb_le, le_shift in E0. destruct E0 as [z ->].
  unfold cp2. rewrite !add_sub_l. lia.
Qed.

Lemma ok3_table b0 b1 b2 : 224 <= b0 -> b0 < 240 ->
  ok3 b0 b1 b2 =
  (if b0 =? 224 then (160 <=? b1) && (b1 <=? 191)
   else if b0 =? 237 then (128 <=? b1) && (b1 <=? 159) else is_cont b1) && is_cont b2.
Proof.
  intros L0 L1. unfold ok3.
  destruct (is_cont b2) eqn:E2; [|rewrite !andb_false_r; reflexivity].
  destruct (is_cont b1) eqn:E1.
  2:{ rewrite andb_false_r, !(range_not_cont _ _ _ E1) by discriminate.
      destruct (b0 =? 224), (b0 =? 237); reflexivity. }
  apply is_cont_shift in E1, E2. destruct E1 as (y & -> & Hy), E2 as (x & -> & Hx).
  destruct (le_shift _ _ L0) as [z ->].
  unfold cp3, is_scalar. rewrite !add_sub_l.
  destruct (_ =? 224) eqn:?; [|destruct (_ =? 237) eqn:?]; lia.
Qed.

Lemma ok4_table b0 b1 b2 b3 : 240 <= b0 ->
  ok4 b0 b1 b2 b3 =
  (b0 <=? 244)
  && (if b0 =? 240 then (144 <=? b1) && (b1 <=? 191)
      else if b0 =? 244 then (128 <=? b1) && (b1 <=? 143) else is_cont b1)
  && is_cont b2 && is_cont b3.
Proof.
  intros L0. unfold ok4.
  destruct (is_cont b3) eqn:E3; [|rewrite !andb_false_r; reflexivity].
  destruct (is_cont b2) eqn:E2; [|rewrite !andb_false_r; reflexivity].
  destruct (is_cont b1) eqn:E1.
  2:{ rewrite andb_false_r, !(range_not_cont _ _ _ E1) by discriminate.
      destruct (b0 =? 240), (b0 =? 244); rewrite ?andb_false_r; reflexivity. }
  apply is_cont_shift in E1, E2, E3.
  destruct E1 as (z & -> & Hz), E2 as (y & -> & Hy), E3 as (x & -> & Hx).
  destruct (le_shift _ _ L0) as [u ->].
  unfold cp4, is_scalar. rewrite !add_sub_l.
  destruct (_ =? 240) eqn:?; [|destruct (_ =? 244) eqn:?]; lia.
Qed.

(* The decoder's case analysis on the first character, with what is done with its value and
   the rest of the input ([k]) and the answer on ill-formed input ([d]) left open:
   [utf8_decode (b0 :: t)] is [step (fun c r => ocons c (utf8_decode r)) None b0 t]. *)
Definition step {A} (k : N -> bytes -> A) (d : A) (b0 : N) (t : bytes) : A :=
  if b0 <? 128 then k b0 t
  else if b0 <? 224 then
    match t with b1 :: r => if ok2 b0 b1 then k (cp2 b0 b1) r else d | _ => d end
  else if b0 <? 240 then
    match t with b1 :: b2 :: r => if ok3 b0 b1 b2 then k (cp3 b0 b1 b2) r else d | _ => d end
  else
    match t with
    | b1 :: b2 :: b3 :: r => if ok4 b0 b1 b2 b3 then k (cp4 b0 b1 b2 b3) r else d
    | _ => d
    end.

Definition decode1 : N -> bytes -> option (N * bytes) := step (fun c r => Some (c, r)) None.

Lemma step_decode1 {A} (k : N -> bytes -> A) d b0 t :
  step k d b0 t = match decode1 b0 t with Some (c, r) => k c r | None => d end.
Proof.
  unfold decode1, step. destruct t as [|b1 [|b2 [|b3 r]]]; split_ifs; reflexivity.
Qed.

Lemma decode_cons b0 t : utf8_decode (b0 :: t) =
  match decode1 b0 t with Some (c, r) => ocons c (utf8_decode r) | None => None end.
Proof. exact (step_decode1 _ _ b0 t). Qed.

Lemma decode1_sound b0 t c r : decode1 b0 t = Some (c, r) ->
  is_scalar c = true /\ utf8_encode c ++ r = b0 :: t /\ (length r <= length t)%nat.
Proof.
  unfold decode1, step.
  destruct (b0 <? 128) eqn:E0.
  { intros [= <- <-]. unfold is_scalar, utf8_encode. rewrite E0. repeat split; lia. }
  destruct (b0 <? 224).
  { destruct t as [|b1 t1]; [discriminate|]. destruct (ok2 b0 b1) eqn:Eo; [|discriminate].
    intros [= <- <-]. destruct (ok2_sound _ _ Eo) as [Hs ->]. cbn [app length]. auto. }
  destruct (b0 <? 240).
  { destruct t as [|b1 [|b2 t2]]; try discriminate.
    destruct (ok3 b0 b1 b2) eqn:Eo; [|discriminate].
    intros [= <- <-]. destruct (ok3_sound _ _ _ Eo) as [Hs ->]. cbn [app length]. auto. }
  destruct t as [|b1 [|b2 [|b3 t3]]]; try discriminate.
  destruct (ok4 b0 b1 b2 b3) eqn:Eo; [|discriminate].
  intros [= <- <-]. destruct (ok4_sound _ _ _ _ Eo) as [Hs ->]. cbn [app length]. auto 6.
Qed.

Lemma ocons_some {A} (x : A) o l : ocons x o = Some l -> exists l', o = Some l' /\ l = x :: l'.
Proof. destruct o as [l'|]; cbn; intros H; inversion H. eauto. Qed.

Theorem decode_sound : forall l cps,
  utf8_decode l = Some cps -> scalars cps /\ utf8_encode_all cps = l.
Proof.
  induction l as [l IH] using (induction_ltof1 _ (@length N)). unfold ltof in IH. intros cps.
  destruct l as [|b0 t]. { intros [= <-]. split; [constructor|reflexivity]. }
  rewrite decode_cons. destruct (decode1 b0 t) as [[c r]|] eqn:E; [|discriminate].
  apply decode1_sound in E. destruct E as (Hc & He & Hr). intros H.
  apply ocons_some in H. destruct H as (cps' & H & ->).
  apply IH in H; [|cbn [length]; lia]. destruct H as [Hs <-].
  split; [constructor; assumption|exact He].
Qed.

Theorem decode_complete : forall cps, scalars cps -> utf8_decode (utf8_encode_all cps) = Some cps.
Proof.
  induction cps as [|c cps IH]; intros H; [reflexivity|].
  inversion H as [|? ? Hc Hr]; subst.
  unfold utf8_encode_all in *. cbn [map concat].
  rewrite decode_encode_one by exact Hc. rewrite IH by exact Hr. reflexivity.
Qed.

Theorem decode_some_iff_well_formed l : is_some (utf8_decode l) = true <-> well_formed l.
Proof.
  split.
  - destruct (utf8_decode l) as [cps|] eqn:E; [|discriminate]. intros _.
    apply decode_sound in E. destruct E as [Hs He]. exists cps. auto.
  - intros (cps & Hs & ->). rewrite decode_complete by exact Hs. reflexivity.
Qed.

(* a well-formed string has exactly one reading: the encoding is injective on scalar values,
   also under concatenation (UTF-8 is uniquely decodable) *)
Theorem encode_all_injective cps cps' :
  scalars cps -> scalars cps' -> utf8_encode_all cps = utf8_encode_all cps' -> cps = cps'.
Proof.
  intros H H' E. apply decode_complete in H. apply decode_complete in H'.
  rewrite E in H. rewrite H in H'. inversion H'. reflexivity.
Qed.

(* one step of the automaton of Store/ChangeChunk.v; that of Hexane/Rle.v makes the same
   step, with the lead bytes sorted differently *)
Definition table_step (f : bytes -> bool) (b0 : N) (t : bytes) : bool :=
  if b0 <? 128 then f t
  else if ChangeChunk.inr 194 223 b0 then
    match t with b1 :: t1 => ChangeChunk.cont b1 && f t1 | _ => false end
  else if ChangeChunk.inr 224 239 b0 then
    match t with
    | b1 :: b2 :: t2 =>
      (if b0 =? 224 then ChangeChunk.inr 160 191 b1
       else if b0 =? 237 then ChangeChunk.inr 128 159 b1 else ChangeChunk.cont b1)
      && ChangeChunk.cont b2 && f t2
    | _ => false
    end
  else if ChangeChunk.inr 240 244 b0 then
    match t with
    | b1 :: b2 :: b3 :: t3 =>
      (if b0 =? 240 then ChangeChunk.inr 144 191 b1
       else if b0 =? 244 then ChangeChunk.inr 128 143 b1 else ChangeChunk.cont b1)
      && ChangeChunk.cont b2 && ChangeChunk.cont b3 && f t3
    | _ => false
    end
  else false.

(* two decision lists over the lead byte: once every test is decided, either the answers
   contradict each other or the two sides are the same branch *)
Lemma rle_table_step b0 t : Rle.utf8_valid (b0 :: t) = table_step Rle.utf8_valid b0 t.
Proof.
  cbn [Rle.utf8_valid]. unfold table_step, ChangeChunk.inr.
  split_ifs; reflexivity || (exfalso; lia).
Qed.

Lemma cont_is_cont b : ChangeChunk.cont b = is_cont b.
Proof. unfold ChangeChunk.cont, is_cont. lia. Qed.

(* that step accepts the first character exactly when the decoder does: within each class of
   lead bytes, by the table lemmas *)
Lemma table_step_decodes f b0 t : table_step f b0 t = step (fun _ => f) false b0 t.
Proof.
  unfold table_step, step, ChangeChunk.inr.
  destruct (b0 <? 128) eqn:E0; [reflexivity|].
  destruct (b0 <? 224) eqn:E1.
  { replace ((224 <=? b0) && (b0 <=? 239)) with false by lia.
    replace ((240 <=? b0) && (b0 <=? 244)) with false by lia.
    replace (b0 <=? 223) with true by lia. rewrite andb_true_r.
    destruct t as [|b1 t1]; [destruct (194 <=? b0); reflexivity|].
    rewrite ok2_table, cont_is_cont by lia. destruct (194 <=? b0); reflexivity. }
  replace ((194 <=? b0) && (b0 <=? 223)) with false by lia.
  destruct (b0 <? 240) eqn:E2.
  { replace ((224 <=? b0) && (b0 <=? 239)) with true by lia.
    destruct t as [|b1 [|b2 t2]]; try reflexivity.
    rewrite ok3_table, !cont_is_cont by lia. reflexivity. }
  replace ((224 <=? b0) && (b0 <=? 239)) with false by lia.
  replace (240 <=? b0) with true by lia. cbn [andb].
  destruct t as [|b1 [|b2 [|b3 t3]]]; try (destruct (b0 <=? 244); reflexivity).
  rewrite ok4_table, !cont_is_cont by lia. destruct (b0 <=? 244); reflexivity.
Qed.

(* so a function that makes that step is the decoder's acceptance *)
Lemma table_unique (f : bytes -> bool) :
  f [] = true -> (forall b0 t, f (b0 :: t) = table_step f b0 t) ->
  forall l, f l = is_some (utf8_decode l).
Proof.
  intros Hnil Hstep. induction l as [l IH] using (induction_ltof1 _ (@length N)).
  destruct l as [|b0 t]; [exact Hnil|].
  rewrite Hstep, table_step_decodes, decode_cons, step_decode1.
  destruct (decode1 b0 t) as [[c r]|] eqn:E; [|reflexivity].
  rewrite is_some_ocons. apply IH. apply decode1_sound in E. unfold ltof. cbn [length]. lia.
Qed.

Theorem rle_valid_decodes l : Rle.utf8_valid l = is_some (utf8_decode l).
Proof. apply table_unique; [reflexivity|exact rle_table_step]. Qed.

Theorem chg_valid_decodes l : ChangeChunk.utf8_valid l = is_some (utf8_decode l).
Proof. apply table_unique; reflexivity. Qed.

Theorem rle_valid_iff_well_formed l : Rle.utf8_valid l = true <-> well_formed l.
Proof. rewrite rle_valid_decodes. apply decode_some_iff_well_formed. Qed.

Theorem chg_valid_iff_well_formed l : ChangeChunk.utf8_valid l = true <-> well_formed l.
Proof. rewrite chg_valid_decodes. apply decode_some_iff_well_formed. Qed.

Theorem chg_valid_complete cps : scalars cps -> ChangeChunk.utf8_valid (utf8_encode_all cps) = true.
Proof. intros H. apply chg_valid_iff_well_formed. exists cps. auto. Qed.

(* hexane `String::try_unpack` *)
Theorem str_dec_well_formed b s r : Rle.str_dec b = Some (s, r) -> well_formed s.
Proof.
  unfold Rle.str_dec. destruct (Rle.blob_dec b) as [[s0 r0]|]; [|discriminate].
  destruct (Rle.utf8_valid s0) eqn:E; [|discriminate].
  intros H; inversion H; subst. apply rle_valid_iff_well_formed. exact E.
Qed.

(* every value of a column the loader accepts went through the value decoder *)
Section LoadedValues.
  Variable V : Type.
  Variable veqb : V -> V -> bool.
  Variable dec : bytes -> option (V * bytes).
  Variable nullable : bool.
  Variable P : V -> Prop.
  Hypothesis dec_P : forall b v r, dec b = Some (v, r) -> P v.

  Definition seg_P (s : Rle.rseg V) : Prop :=
    match s with Rle.RLit v => P v | Rle.RRun _ v => P v | _ => True end.

  Lemma fst_cons_let {A B} (s : A) (p : list A * B) :
    fst (let (ss, t) := p in (s :: ss, t)) = s :: fst p.
  Proof. destruct p; reflexivity. Qed.

  Lemma raw_parse_P : forall fuel lit b, Forall seg_P (fst (Rle.raw_parse V dec fuel lit b)).
  Proof.
    induction fuel as [|fuel IH]; intros lit b; cbn [Rle.raw_parse]; [constructor|].
    assert (K : forall s l r, seg_P s ->
                Forall seg_P (fst (let (ss, t) := Rle.raw_parse V dec fuel l r in (s :: ss, t)))).
    { intros s l r Hs. rewrite fst_cons_let. constructor; [exact Hs|apply IH]. }
    destruct (0 <? lit).
    { destruct (dec b) as [[v r]|] eqn:Ed; [apply K; exact (dec_P _ _ _ Ed)|constructor]. }
    destruct b as [|x b']; [constructor|].
    destruct (Hleb.hleb_s (x :: b')) as [[n r]|]; [|constructor].
    destruct (0 <? n)%Z.
    { destruct (dec r) as [[v r']|] eqn:Ed; [apply K; exact (dec_P _ _ _ Ed)|constructor]. }
    destruct (n <? 0)%Z.
    { destruct (n =? Hleb.i64_min)%Z; [constructor|apply K; exact I]. }
    destruct (Hleb.hleb_u r) as [[c r']|]; [apply K; exact I|constructor].
  Qed.

  Lemma runs_of_P ss : Forall seg_P ss ->
    forall n v, In (n, Some v) (RleProofs.runs_of V ss) -> P v.
  Proof.
    induction 1 as [|s ss Hs Hss IH]; intros n v; cbn [RleProofs.runs_of]; [intros []|].
    destruct s as [k|w|k w|k]; cbn [seg_P] in Hs; cbn [In]; [apply IH|..];
      (intros [E|Hin]; [inversion E; subst; exact Hs|exact (IH _ _ Hin)]).
  Qed.

  Theorem rle_load_values b rs :
    Rle.rle_load V veqb dec nullable b = Ok rs -> forall n v, In (n, Some v) rs -> P v.
  Proof.
    unfold Rle.rle_load, Rle.rle_load_segs.
    pose proof (raw_parse_P (S (length b)) 0 b) as HP.
    destruct (Rle.raw_parse V dec (S (length b)) 0 b) as [ss t].
    destruct (Rle.check V veqb nullable (Rle.cst_init V) ss) as [st| |] eqn:Ec; cbn [bind]; try discriminate.
    destruct t; [|discriminate]. intros Hf.
    apply RleProofs.finish_inv in Hf. apply RleProofs.check_out in Ec. destruct Ec as [Eo _].
    rewrite Eo in Hf. cbn [Rle.cst_init Rle.c_out] in Hf.
    rewrite app_nil_r, rev_involutive in Hf. subst rs.
    apply runs_of_P. exact HP.
  Qed.
End LoadedValues.

(* `Column::<String>::load` / `Column::<Option<String>>::load`: every string in the column *)
Theorem str_load_well_formed nullable b rs :
  Rle.str_load nullable b = Ok rs -> forall n s, In (n, Some s) rs -> well_formed s.
Proof.
  unfold Rle.str_load. apply rle_load_values. intros b0 v r. apply str_dec_well_formed.
Qed.

Theorem str_load_vals_well_formed nullable b vs :
  Rle.rle_load_vals bytes bytes_eqb Rle.str_dec nullable b = Ok vs ->
  forall s, In (Some s) vs -> well_formed s.
Proof.
  unfold Rle.rle_load_vals.
  destruct (Rle.rle_load bytes bytes_eqb Rle.str_dec nullable b) as [rs| |] eqn:El; cbn [bind]; try discriminate.
  intros H; inversion H; subst vs; clear H. intros s Hin.
  assert (G : exists n, In (n, Some s) rs).
  { clear El. induction rs as [|[n x] rs IH]; cbn [Rle.expand] in Hin; [destruct Hin|].
    apply in_app_or in Hin. destruct Hin as [Hin|Hin].
    - apply repeat_spec in Hin. subst x. exists n. left. reflexivity.
    - destruct (IH Hin) as [m Hm]. exists m. right. exact Hm. }
  destruct G as [n Hn]. exact (str_load_well_formed nullable b rs El n s Hn).
Qed.

(* `Change::parse_following_header`: the message *)
Theorem parse_body_message_valid b c :
  ChangeChunk.parse_body b = Ok c -> ChangeChunk.utf8_valid (ChangeChunk.cb_message c) = true.
Proof.
  unfold ChangeChunk.parse_body. intros H.
  repeat (apply bind_ok in H; destruct H as ([? ?] & _ & H)).
  destruct (ChangeChunk.utf8_valid _) eqn:E in H; cbn [negb] in H; [|discriminate].
  repeat (apply bind_ok in H; destruct H as ([? ?] & _ & H)).
  apply bind_ok in H. destruct H as (? & _ & H).
  apply bind_ok in H. destruct H as ([? ?] & _ & H).
  destruct (existsb _ _); [discriminate|]. destruct (negb _); [discriminate|].
  inversion H; subst c. cbn [ChangeChunk.cb_message]. exact E.
Qed.

Theorem parse_body_message_well_formed b c :
  ChangeChunk.parse_body b = Ok c -> well_formed (ChangeChunk.cb_message c).
Proof. intros H. apply chg_valid_iff_well_formed. exact (parse_body_message_valid b c H). Qed.
