(* Store/DocBodyProofs.v — the document chunk body inside the chunk framing of Store/Chunk.v; a
   computed round trip of the change-metadata columns and two inputs on which their decoder panics. *)
From AM Require Import Base.Prelude Base.Leb128 Gen.Consts Store.Chunk Store.ChunkProofs
  Store.DocChunk Store.DocChunkProofs Store.DocCols Exec.DocExec.
Local Open Scope N_scope.

Section Framed.
  Variable Hsh : bytes -> bytes.
  Hypothesis Hsh_len : forall x, (4 <= length (Hsh x))%nat.
  Variable C : Type.
  Variable inflate : bytes -> option bytes.
  Variable recon : doc_body -> list chmeta -> option (list C).
  Variable other : N -> bytes -> option (list C).
  Variable D : Type.
  Variable empty : D.
  Variable apply : D -> list C -> res D.
  Variable queue_empty : D -> bool.

  (* the file save writes for a well-formed body loads to the changes reconstructed from exactly
     that body and its decoded change metadata *)
  Theorem load_saved_doc_body d ms cs m :
    wf_doc d -> lenN (write_doc d) < pow64 -> doc_metas d = Ok ms -> recon d ms = Some cs ->
    load Hsh C (doc_chunk_body inflate recon other) inflate D empty apply queue_empty m
      (encode_chunk Hsh CHUNK_DOCUMENT (write_doc d)) = apply empty cs.
  Proof.
    intros Hwf Hlen Hm Hr. apply (load_saved_document Hsh Hsh_len); [exact Hlen|].
    unfold doc_chunk_body. change (CHUNK_DOCUMENT =? CHUNK_DOCUMENT) with true. cbn iota.
    rewrite doc_body_roundtrip by exact Hwf. rewrite Hm. exact Hr.
  Qed.
End Framed.

(* a concrete, non-trivial instance of the change-column codec (three actors, a merge, messages,
   negative / large times, extra bytes): decode inverts encode, and the decoded list is well-formed *)
Definition ex_metas : list chmeta :=
  [ mkMeta 2 1 3 (-62135596800000)%Z None [] [];
    mkMeta 0 1 5 1700000000000%Z (Some [104; 195; 169]) [0] [1; 2; 3];
    mkMeta 1 1 4 0%Z (Some []) [0] [];
    mkMeta 2 2 9 4611686018427387903%Z None [1; 2] [255];
    mkMeta 2 3 9 (-1)%Z (Some [102; 105; 120]) [3] [] ].

Example ex_metas_wf : wf_metasb 3 ex_metas = true.
Proof. vm_compute. reflexivity. Qed.

Example ex_metas_roundtrip : decode_change_cols 3 (encode_change_cols ex_metas) = Ok ex_metas.
Proof. vm_compute. reflexivity. Qed.

(* the streaming decoders of the change columns panic on untrusted bytes (known findings of C15:
   change_graph.rs [load] index out of bounds, hexane [get_null], [unpack]) *)
Theorem decode_change_cols_panics_refuted :
  exists cols, decode_change_cols 1 cols = Panic.
Proof. exists [(1, [0; 1])]. vm_compute. reflexivity. Qed.

Theorem decode_change_cols_dep_index_panics_refuted :
  exists cols ms, decode_change_cols 1 cols = Panic
    /\ decode_change_cols 1 (encode_change_cols ms) = Ok ms /\ length ms = 1%nat.
Proof.
  (* one change whose dependency index 5 points past the end: max_ops[5] *)
  exists [(1, [1; 0]); (3, [1; 1]); (19, [1; 1]); (35, [127; 0]); (64, [1; 1]); (67, [1; 5]); (86, [127; 7])].
  exists [mkMeta 0 1 1 0%Z None [] []].
  split; [vm_compute; reflexivity|]. split; [vm_compute; reflexivity|reflexivity].
Qed.
