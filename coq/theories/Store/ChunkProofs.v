(* Store/ChunkProofs.v — framing theorems of the storage model (Store/Chunk.v).

   What is proved here, for every hash function with >= 4 output bytes, every body parser,
   every inflater and every document-level [apply]:
   - a written chunk followed by anything parses back to its changes and leaves exactly the rest;
   - no strict prefix of a written chunk parses (prefix-freeness of the framing);
   - hence a file of written chunks cut at ANY byte loads, with partial loads allowed, to what
     the file cut at the last chunk boundary loads to, and a strict load of a cut that is not a
     boundary is an error;
   - the parsers never return [Panic]. *)
From AM Require Import Base.Prelude Base.Leb128 Gen.Consts Store.Chunk.
Local Open Scope N_scope.

Lemma take_n_mono {A} n (l a r s : list A) :
  take_n n l = Some (a, r) -> take_n n (l ++ s) = Some (a, r ++ s).
Proof.
  intros H. apply take_n_spec in H. destruct H as [-> <-].
  rewrite <- app_assoc. apply take_n_app.
Qed.

Lemma udec_mono f : forall first l v r s,
  udec first f l = Ok (v, r) -> udec first f (l ++ s) = Ok (v, r ++ s).
Proof.
  induction f as [|f IH]; intros first l v r s H; [discriminate|].
  cbn [udec] in *. destruct l as [|b t]; [discriminate|]. cbn [app].
  destruct (b <? 128).
  - destruct (Nat.eqb f 0 && (1 <? b)); [discriminate|].
    destruct (negb first && (b =? 0)); [discriminate|].
    inversion H; subst. reflexivity.
  - destruct (Nat.eqb f 0); [discriminate|].
    destruct (udec false f t) as [[v' r']| |] eqn:Ed; cbn [bind] in H; try discriminate.
    inversion H; subst. rewrite (IH _ _ _ _ s Ed). reflexivity.
Qed.

Lemma bytes_eqb_refl (a : bytes) : bytes_eqb a a = true.
Proof. apply bytes_eqb_spec. reflexivity. Qed.

Lemma length_lenN (l : bytes) : lenN l = N.of_nat (length l).
Proof. reflexivity. Qed.

Lemma take_N_spec n l a r :
  take_N n l = Some (a, r) <-> (l = a ++ r /\ lenN a = n).
Proof. apply take_n_N_spec. Qed.

Lemma take_N_mono n l a r s :
  take_N n l = Some (a, r) -> take_N n (l ++ s) = Some (a, r ++ s).
Proof.
  intros H. apply take_N_spec in H. destruct H as [-> Hn].
  apply take_N_spec. rewrite <- app_assoc. auto.
Qed.

Section Proofs.
  Variable Hsh : bytes -> bytes.
  Hypothesis Hsh_len : forall x, (4 <= length (Hsh x))%nat.
  Variable C : Type.
  Variable body : N -> bytes -> option (list C).
  Variable inflate : bytes -> option bytes.

  Notation parse_chunk := (parse_chunk Hsh C body inflate).
  Notation load_changes := (load_changes Hsh C body inflate).
  Notation encode_chunk := (encode_chunk Hsh).
  Notation encode_compressed := (encode_compressed Hsh).
  Notation checksum_of := (checksum_of Hsh).

  Lemma checksum_len ty data : length (checksum_of ty data) = 4%nat.
  Proof.
    unfold checksum_of, chunk_hash. rewrite firstn_length. specialize (Hsh_len (ty :: uleb_enc (lenN data) ++ data)). lia.
  Qed.

  Lemma parse_header_mono bs h r s :
    parse_header bs = Ok (h, r) -> parse_header (bs ++ s) = Ok (h, r ++ s).
  Proof.
    unfold parse_header. intros H.
    destruct (take_n 4 bs) as [[magic i]|] eqn:E1; [|discriminate].
    rewrite (take_n_mono _ _ _ _ s E1).
    destruct (negb (bytes_eqb magic MAGIC_BYTES)); [discriminate|].
    destruct (take_n 4 i) as [[ck i2]|] eqn:E2; [|discriminate].
    rewrite (take_n_mono _ _ _ _ s E2).
    destruct i2 as [|ty i3]; [discriminate|]. cbn [app].
    destruct (negb (valid_type ty)); [discriminate|].
    unfold uleb_dec in *.
    destruct (udec true 10 i3) as [[len i4]| |] eqn:E3; cbn [bind] in H; try discriminate.
    rewrite (udec_mono _ _ _ _ _ s E3). cbn [bind].
    destruct (take_N len i4) as [[data rest]|] eqn:E4; [|discriminate].
    rewrite (take_N_mono _ _ _ _ s E4). inversion H; subst. reflexivity.
  Qed.

  Lemma parse_header_no_panic bs : parse_header bs <> Panic.
  Proof.
    unfold parse_header.
    destruct (take_n 4 bs) as [[magic i]|]; [|discriminate].
    destruct (negb (bytes_eqb magic MAGIC_BYTES)); [discriminate|].
    destruct (take_n 4 i) as [[ck [|ty i3]]|]; try discriminate.
    destruct (negb (valid_type ty)); [discriminate|].
    apply bind_no_panic; [apply uleb_dec_no_panic|]. intros [len i4] _.
    destruct (take_N len i4) as [[data rest]|]; discriminate.
  Qed.

  Lemma parse_header_written ck ty data rest :
    length ck = 4%nat -> valid_type ty = true -> lenN data < pow64 ->
    parse_header (MAGIC_BYTES ++ ck ++ [ty] ++ uleb_enc (lenN data) ++ data ++ rest)
    = Ok (mkHeader ck ty data, rest).
  Proof.
    intros Hck Hty Hlen. unfold parse_header.
    rewrite (take_n_app MAGIC_BYTES).
    rewrite bytes_eqb_refl. cbn [negb]. rewrite <- Hck at 1. rewrite take_n_app. cbn [app].
    rewrite Hty. cbn [negb].
    rewrite (uleb_roundtrip _ _ Hlen). cbn [bind].
    assert (take_N (lenN data) (data ++ rest) = Some (data, rest)) as ->
      by (apply take_N_spec; auto).
    reflexivity.
  Qed.

  (* [written b cs ty]: [b] is the chunk the writer emits for a body that parses to [cs] *)
  Inductive written : bytes -> list C -> N -> Prop :=
  | w_plain ty data cs :
      valid_type ty = true -> ty <> CHUNK_COMPRESSED -> lenN data < pow64 ->
      body ty data = Some cs -> written (encode_chunk ty data) cs ty
  | w_compressed deflated plain cs :
      lenN deflated < pow64 -> inflate deflated = Some plain -> body CHUNK_CHANGE plain = Some cs ->
      written (encode_compressed deflated plain) cs CHUNK_COMPRESSED.

  Lemma header_plain ty data rest :
    valid_type ty = true -> lenN data < pow64 ->
    parse_header (encode_chunk ty data ++ rest) = Ok (mkHeader (checksum_of ty data) ty data, rest).
  Proof.
    intros Hty Hlen. unfold Chunk.encode_chunk. repeat rewrite <- app_assoc.
    apply parse_header_written; [apply checksum_len|exact Hty|exact Hlen].
  Qed.

  Lemma header_compressed deflated plain rest :
    lenN deflated < pow64 ->
    parse_header (encode_compressed deflated plain ++ rest)
    = Ok (mkHeader (checksum_of CHUNK_CHANGE plain) CHUNK_COMPRESSED deflated, rest).
  Proof.
    intros Hlen. unfold Chunk.encode_compressed. repeat rewrite <- app_assoc.
    apply parse_header_written; [apply checksum_len|reflexivity|exact Hlen].
  Qed.

  Theorem parse_written b cs ty rest :
    written b cs ty -> parse_chunk (b ++ rest) = Ok (ty, cs, rest).
  Proof.
    intros W. destruct W as [ty data cs Hty Hnc Hlen Hb | deflated plain cs Hlen Hinf Hb];
      unfold Chunk.parse_chunk.
    - rewrite header_plain by assumption. cbn [bind h_type h_data h_checksum].
      assert ((ty =? CHUNK_COMPRESSED) = false) as -> by (apply N.eqb_neq; exact Hnc).
      rewrite Hb, bytes_eqb_refl. reflexivity.
    - rewrite header_compressed by assumption. cbn [bind h_type h_data h_checksum].
      assert ((CHUNK_COMPRESSED =? CHUNK_COMPRESSED) = true) as -> by reflexivity.
      rewrite Hinf, Hb, bytes_eqb_refl. reflexivity.
  Qed.

  Lemma written_header b cs ty :
    written b cs ty -> exists h, parse_header b = Ok (h, []).
  Proof.
    intros W. rewrite <- (app_nil_r b).
    destruct W; eexists; [apply header_plain|apply header_compressed]; assumption.
  Qed.

  Lemma written_nonempty b cs ty : written b cs ty -> b <> [].
  Proof. intros W; destruct W; discriminate. Qed.

  (* prefix-freeness: no strict prefix of a written chunk has a parsable header *)
  Theorem prefix_no_header b cs ty k :
    written b cs ty -> (k < length b)%nat -> parse_header (firstn k b) = Err.
  Proof.
    intros W Hk. destruct (written_header _ _ _ W) as [h Hh].
    destruct (parse_header (firstn k b)) as [[h' r']| |] eqn:E.
    - exfalso. apply (parse_header_mono _ _ _ (skipn k b)) in E.
      rewrite firstn_skipn, Hh in E. inversion E as [[Eh Er]].
      symmetry in Er. apply app_eq_nil in Er. destruct Er as [_ Er].
      assert (length (skipn k b) = 0%nat) by (rewrite Er; reflexivity).
      rewrite skipn_length in *. lia.
    - reflexivity.
    - exfalso. exact (parse_header_no_panic _ E).
  Qed.

  Lemma parse_chunk_header_err bs : parse_header bs = Err -> parse_chunk bs = Err.
  Proof. unfold Chunk.parse_chunk. intros ->. reflexivity. Qed.

  Lemma parse_chunk_no_panic bs : parse_chunk bs <> Panic.
  Proof.
    apply bind_no_panic; [apply parse_header_no_panic|]. intros [h rest] _.
    destruct (h_type h =? CHUNK_COMPRESSED); [destruct (inflate (h_data h)); [|discriminate]|];
      (destruct (body _ _); [|discriminate]); destruct (bytes_eqb _ _); discriminate.
  Qed.

  Definition stored := list (bytes * list C * N).
  Definition all_written (l : stored) : Prop := Forall (fun x => written (fst (fst x)) (snd (fst x)) (snd x)) l.
  Definition flat (l : stored) : bytes := concat (map (fun x => fst (fst x)) l).
  Definition changes_of (l : stored) : list C := concat (map (fun x => snd (fst x)) l).

  Lemma flat_app a b : flat (a ++ b) = flat a ++ flat b.
  Proof. unfold flat. rewrite map_app, concat_app. reflexivity. Qed.
  Lemma changes_app a b : changes_of (a ++ b) = changes_of a ++ changes_of b.
  Proof. unfold changes_of. rewrite map_app, concat_app. reflexivity. Qed.

  Lemma flat_length_ge l : all_written l -> (length l <= length (flat l))%nat.
  Proof.
    induction 1 as [|[[b cs] ty] l W _ IH]; [apply le_n|]. cbn [fst snd] in W.
    change (flat ((b, cs, ty) :: l)) with (b ++ flat l). rewrite app_length.
    apply written_nonempty in W. destruct b; [congruence|]. cbn [length]. lia.
  Qed.

  (* a written chunk at the head of the input: the chunk loop reads it and goes on *)
  Lemma load_changes_written fuel b cs ty rest :
    written b cs ty ->
    load_changes (S fuel) (b ++ rest) = let (more, ok) := load_changes fuel rest in (cs ++ more, ok).
  Proof.
    intros W. pose proof (parse_written _ _ _ rest W) as P. apply written_nonempty in W.
    destruct b; [congruence|]. cbn [Chunk.load_changes app] in *. rewrite P. reflexivity.
  Qed.

  (* written chunks followed by a tail [p] without a parsable header (the end of the input, or a
     strict prefix of one more written chunk): all the chunks are read, and the loop reports
     "complete" iff nothing is left over *)
  Lemma load_changes_tail p : parse_header p = Err -> forall l fuel,
    all_written l -> (length l <= fuel)%nat ->
    load_changes fuel (flat l ++ p) = (changes_of l, Nat.eqb (length p) 0).
  Proof.
    intros Hp l fuel Hall. revert fuel.
    induction Hall as [|[[b cs] ty] l W _ IH]; intros fuel Hf; cbn [fst snd] in *.
    - destruct p, fuel; try reflexivity. cbn [flat map concat app Chunk.load_changes].
      rewrite parse_chunk_header_err by exact Hp. reflexivity.
    - destruct fuel as [|fuel]; cbn [length] in Hf; [lia|].
      change (flat ((b, cs, ty) :: l)) with (b ++ flat l). rewrite <- app_assoc.
      rewrite (load_changes_written _ _ _ _ _ W), IH by lia. reflexivity.
  Qed.

  Lemma tail_fuel l p : all_written l -> (length l <= length (flat l ++ p))%nat.
  Proof. intros Hall. apply flat_length_ge in Hall. rewrite app_length. lia. Qed.

  (* a cut of a file: whole chunks [l1], then [j] bytes, fewer than the next chunk has *)
  Lemma cut_decompose : forall (l : stored) k, (k <= length (flat l))%nat ->
    exists l1 l2 j, l = l1 ++ l2 /\ k = (length (flat l1) + j)%nat /\
      firstn k (flat l) = flat l1 ++ firstn j (flat l2) /\
      match l2 with [] => j = 0%nat | x :: _ => (j < length (fst (fst x)))%nat end.
  Proof.
    induction l as [|x l IH]; intros k Hk.
    - exists [], [], 0%nat. cbn in Hk. destruct k; [auto|lia].
    - change (flat (x :: l)) with (fst (fst x) ++ flat l) in *. rewrite app_length in Hk.
      destruct (Nat.ltb k (length (fst (fst x)))) eqn:E.
      + apply Nat.ltb_lt in E. exists [], (x :: l), k. auto.
      + apply Nat.ltb_ge in E.
        destruct (IH (k - length (fst (fst x)))%nat) as (l1 & l2 & j & -> & Hkk & Hf & Hj); [lia|].
        exists (x :: l1), l2, j. change (flat (x :: l1)) with (fst (fst x) ++ flat l1).
        rewrite firstn_app, firstn_all2, Hf, app_assoc, app_length by lia. repeat split; [lia|exact Hj].
  Qed.

  Variable D : Type.
  Variable empty : D.
  Variable apply : D -> list C -> res D.
  Variable queue_empty : D -> bool.
  Notation load := (load Hsh C body inflate D empty apply queue_empty).

  Definition strict_result (first_ty : N) (cs : list C) : res D :=
    let* d := apply empty cs in
    if negb (queue_empty d) && negb (first_ty =? CHUNK_DOCUMENT) then Err else Ok d.

  Lemma load_written m b cs ty rest :
    written b cs ty ->
    load m (b ++ rest) =
      let (more, ok) := load_changes (length rest) rest in
      match m with
      | Ignore => apply empty (cs ++ more)
      | Strict => if ok then strict_result ty (cs ++ more) else Err
      end.
  Proof.
    intros W. pose proof (parse_written _ _ _ rest W) as P. apply written_nonempty in W.
    destruct b; [congruence|]. unfold Chunk.load. cbn [app] in *. rewrite P. cbn [bind].
    destruct (load_changes (length rest) rest) as [more []], m; try reflexivity.
    destruct (apply empty (cs ++ more)); reflexivity.
  Qed.

  Theorem load_tail l p m :
    all_written l -> parse_header p = Err ->
    load m (flat l ++ p) =
      match l with
      | [] => if Nat.eqb (length p) 0 then Ok empty else Err
      | x :: _ =>
        match m with
        | Ignore => apply empty (changes_of l)
        | Strict => if Nat.eqb (length p) 0 then strict_result (snd x) (changes_of l) else Err
        end
      end.
  Proof.
    intros Hall Hp. destruct Hall as [|[[b cs] ty] l W Hall]; cbn [fst snd] in *.
    - destruct p; [reflexivity|]. unfold Chunk.load. cbn [flat map concat app].
      rewrite parse_chunk_header_err by exact Hp. reflexivity.
    - change (flat ((b, cs, ty) :: l)) with (b ++ flat l). rewrite <- app_assoc.
      rewrite (load_written m _ _ _ _ W), (load_changes_tail p Hp l) by (exact Hall || exact (tail_fuel l p Hall)).
      reflexivity.
  Qed.

  Theorem load_complete x l m :
    all_written (x :: l) ->
    load m (flat (x :: l)) =
      match m with
      | Ignore => apply empty (changes_of (x :: l))
      | Strict => strict_result (snd x) (changes_of (x :: l))
      end.
  Proof.
    intros Hall. rewrite <- (app_nil_r (flat (x :: l))). exact (load_tail (x :: l) [] m Hall eq_refl).
  Qed.

  Lemma load_single b cs ty m :
    written b cs ty ->
    load m b = match m with Ignore => apply empty cs | Strict => strict_result ty cs end.
  Proof.
    intros W. pose proof (load_written m b cs ty [] W) as H. cbn [length Chunk.load_changes] in H.
    rewrite !app_nil_r in H. exact H.
  Qed.

  (* the output of save is ONE document chunk; loading it, strictly or not, is the body's changes
     applied to the empty document: a strict load never rejects a document-first file because of
     held changes (orphans retained by save come back into the queue) *)
  Theorem load_saved_document data cs m :
    lenN data < pow64 -> body CHUNK_DOCUMENT data = Some cs ->
    load m (encode_chunk CHUNK_DOCUMENT data) = apply empty cs.
  Proof.
    intros Hlen Hb. rewrite (load_single _ cs CHUNK_DOCUMENT) by (apply w_plain; [reflexivity|discriminate|exact Hlen|exact Hb]).
    destruct m; [|reflexivity]. unfold strict_result.
    destruct (apply empty cs); cbn [bind]; try reflexivity.
    change (CHUNK_DOCUMENT =? CHUNK_DOCUMENT) with true. rewrite andb_false_r. reflexivity.
  Qed.

  (* C13 in one statement: cut a file of written chunks at ANY byte [k].  With partial loads
     allowed the result is what the file cut at the last chunk boundary loads to (the empty
     document for the empty cut, an error inside the first chunk); a strict load of a cut that
     is not a chunk boundary is an error. *)
  Theorem truncated_load (l : stored) (k : nat) :
    all_written l -> (k <= length (flat l))%nat ->
    exists l1 l2, l = l1 ++ l2 /\ (length (flat l1) <= k)%nat /\
      (* l1 = the chunks wholly inside the cut; the cut ends inside the first chunk of l2 *)
      (forall x l2', l2 = x :: l2' -> (k < length (flat l1) + length (fst (fst x)))%nat) /\
      (l2 = [] -> k = length (flat l)) /\
      load Ignore (firstn k (flat l)) =
        (match l1 with
         | [] => if Nat.eqb k 0 then Ok empty else Err
         | _ => load Ignore (flat l1)
         end) /\
      (k <> length (flat l1) -> load Strict (firstn k (flat l)) = Err) /\
      (k = length (flat l1) -> load Strict (firstn k (flat l)) = load Strict (flat l1)).
  Proof.
    intros Hall Hk. destruct (cut_decompose l k Hk) as (l1 & l2 & j & -> & -> & Hf & Hj).
    apply Forall_app in Hall. destruct Hall as [H1 H2].
    (* what is left of the cut after [l1] has no header, at the end of the file or inside a chunk *)
    assert (Hp : parse_header (firstn j (flat l2)) = Err /\ length (firstn j (flat l2)) = j).
    { destruct H2 as [|[[b cs] ty] l2 W _]; cbn [fst] in Hj; [subst j; auto|].
      change (flat ((b, cs, ty) :: l2)) with (b ++ flat l2).
      rewrite firstn_app, (proj2 (Nat.sub_0_le j (length b))), firstn_O, app_nil_r, firstn_length_le by lia.
      split; [exact (prefix_no_header _ _ _ _ W Hj)|reflexivity]. }
    destruct Hp as [Hp Hlen].
    exists l1, l2. split; [reflexivity|]. split; [lia|].
    split; [intros x l2' ->; lia|]. split; [intros ->; rewrite app_nil_r; lia|].
    rewrite Hf, !(fun m => load_tail l1 _ m H1 Hp), Hlen.
    destruct l1 as [|y l1'].
    - cbn [flat map concat length Nat.add]. destruct j; repeat split; congruence.
    - rewrite !(fun m => load_complete y l1' m H1).
      destruct j; repeat split; try congruence; lia.
  Qed.

  (* neither load ever panics (as far as framing goes: [apply] is the CRDT layer) *)
  Theorem load_no_panic m bs : (forall d cs, apply d cs <> Panic) -> load m bs <> Panic.
  Proof.
    intros Hap. unfold Chunk.load. destruct bs as [|x bs]; [discriminate|].
    apply bind_no_panic; [apply parse_chunk_no_panic|]. intros [[ty first] rest] _.
    destruct (load_changes (length rest) rest) as [more []].
    - apply bind_no_panic; [apply Hap|]. intros d _.
      destruct m; [destruct (negb (queue_empty d) && negb (ty =? CHUNK_DOCUMENT))|]; discriminate.
    - destruct m; [discriminate|apply Hap].
  Qed.

  Variable is_empty : D -> bool.
  Notation load_incremental := (load_incremental Hsh C body inflate D empty apply queue_empty is_empty).

  (* C12: feeding a non-empty document the concatenation of written pieces applies exactly their
     changes; an incomplete tail is dropped without an error *)
  Lemma load_incremental_tail d l p :
    is_empty d = false -> all_written l -> parse_header p = Err ->
    load_incremental d (flat l ++ p) = apply d (changes_of l).
  Proof.
    intros He Hall Hp. unfold Chunk.load_incremental.
    rewrite He, (load_changes_tail p Hp l) by (exact Hall || exact (tail_fuel l p Hall)). reflexivity.
  Qed.

  Theorem load_incremental_complete d l :
    is_empty d = false -> all_written l ->
    load_incremental d (flat l) = apply d (changes_of l).
  Proof.
    intros He Hall. rewrite <- (app_nil_r (flat l)). exact (load_incremental_tail d l [] He Hall eq_refl).
  Qed.

  Theorem load_incremental_cut d l b cs ty j :
    is_empty d = false -> all_written l -> written b cs ty -> (j < length b)%nat ->
    load_incremental d (flat l ++ firstn j b) = apply d (changes_of l).
  Proof.
    intros He Hall W Hj. exact (load_incremental_tail d l _ He Hall (prefix_no_header _ _ _ _ W Hj)).
  Qed.

  Lemma load_incremental_single d b cs ty :
    is_empty d = false -> written b cs ty -> load_incremental d b = apply d cs.
  Proof.
    intros He W. pose proof (load_incremental_complete d [(b, cs, ty)] He (Forall_cons (b, cs, ty) W (Forall_nil _))) as H.
    unfold flat, changes_of in H. cbn [map concat fst snd] in H. rewrite !app_nil_r in H. exact H.
  Qed.
End Proofs.
