(* Store/Refeed.v — delivering changes a document already holds (applied or queued) has no effect.
   Used by C12: feeding the same incremental pieces again changes nothing. *)
From AM Require Import Base.Prelude Base.ListFacts Base.Order Crdt.Types Crdt.Doc Crdt.QueueProofs.
Local Open Scope N_scope.

Theorem receive_again d cs d' cs' :
  receive d cs = Ok d' -> incl cs' cs -> receive d' cs' = Ok d'.
Proof.
  intros H Hin.
  destruct (receive_keeps _ _ _ H) as (_ & _ & _ & Hheld).
  pose proof (receive_queue_not_ready _ _ _ H) as Hnr.
  unfold receive.
  rewrite (filter_all_false _ cs').
  2:{ intros c Hc. destruct (Hheld c (Hin c Hc)) as [E|E]; rewrite E; [reflexivity|rewrite orb_true_r; reflexivity]. }
  cbn [batch_push bind]. rewrite app_nil_r. cbn [release].
  rewrite (filter_all_false _ (queue d') Hnr). destruct d'; reflexivity.
Qed.

(* non-vacuity: the empty delivery to the empty document *)
Example receive_again_example : receive empty_doc [] = Ok empty_doc.
Proof. reflexivity. Qed.
