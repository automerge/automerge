(* Store/DocChunkProofs.v — theorems about the document-chunk body model (Store/DocChunk.v).

   - [doc_body_roundtrip]: the reader inverts the writer on every well-formed body, whatever
     [inflate] is (the uncompressed path never calls it);
   - [doc_body_canonical]: with compressed columns ruled out ([inflate] = nowhere defined) the
     reader accepts ONLY the writer's output: a parsed body re-encodes to the very bytes it was
     parsed from and is well-formed.  The head-index VALUES are part of the parsed value, so this
     holds although the reader never checks them: [parse_doc_head_index_unchecked] exhibits two
     different accepted bodies that differ in a head index only (the loader ignores it);
     [parse_doc_compressed_not_canonical]: with DEFLATE, bodies that are not the writer's
     uncompressed output are accepted (expected: that is what compression is);
   - [parse_doc_no_panic]: no input and no [inflate] make the reader panic (the overflow-checked
     sums cannot overflow, the column slices of [uncompress] are in range);
   - [parse_doc_count_bound]: a declared actor / head / column count larger than the remaining
     input is rejected before any element is read. *)
From AM Require Import Base.Prelude Base.ListFacts Base.Leb128 Gen.Consts
  Store.Chunk Store.ChunkProofs Store.ChangeChunk Store.ChangeChunkProofs Store.DocChunk.
Local Open Scope N_scope.

Definition V_u64 (n : N) : Prop := n < pow64.

Definition idx_rt := rep_nat_rt uleb_dec uleb_enc V_u64 uleb_roundtrip.
Definition idx_can := rep_nat_can uleb_dec uleb_enc V_u64 uleb_canonical.
Definition idx_np := rep_nat_no_panic uleb_dec uleb_dec_no_panic.

Lemma p_suffix_rt hidx n :
  Forall V_u64 hidx -> (hidx = [] \/ length hidx = n) ->
  p_suffix n (concat (map uleb_enc hidx)) = Ok (hidx, []).
Proof.
  intros Hv [->| <-]; [reflexivity|].
  destruct hidx as [|x t]; [reflexivity|].
  unfold p_suffix. destruct (concat (map uleb_enc (x :: t))) eqn:E.
  - destruct (app_nonempty _ _ (uleb_enc_nonempty x) E).
  - rewrite <- E. rewrite <- (app_nil_r (concat (map uleb_enc (x :: t)))). apply idx_rt. exact Hv.
Qed.

Lemma p_suffix_can n l hidx rest :
  wf_bytes l -> p_suffix n l = Ok (hidx, rest) ->
  l = concat (map uleb_enc hidx) ++ rest /\ Forall V_u64 hidx /\ (hidx = [] \/ length hidx = n).
Proof.
  intros Hwf H. unfold p_suffix in H. destruct l as [|b l'].
  - inversion H; subst. cbn. auto.
  - apply idx_can in H; [|exact Hwf]. destruct H as (E & Hv & Hn). auto.
Qed.

Lemma p_suffix_no_panic n l : p_suffix n l <> Panic.
Proof. unfold p_suffix. destruct l; [discriminate|apply idx_np]. Qed.

Lemma take_N_none n l : take_N n l = None -> lenN l < n.
Proof.
  unfold take_N. destruct (lenN l <? n) eqn:E; [lia|].
  intros H. apply take_n_short in H. unfold lenN in *. lia.
Qed.

Section WithInflate.
  Variable inflate : bytes -> option bytes.

  Lemma uncompress_no_panic : forall cols data,
    sumN (map snd cols) <= lenN data -> uncompress inflate cols data <> Panic.
  Proof.
    induction cols as [|[s l] t IH]; intros data H; cbn [uncompress]; [discriminate|].
    cbn [map snd sumN fold_right] in H. fold (sumN (map snd t)) in H.
    destruct (take_N l data) as [[a r]|] eqn:E.
    - apply take_N_spec in E. destruct E as [-> Hl]. rewrite lenN_app in H.
      assert (Hr : uncompress inflate t r <> Panic) by (apply IH; lia).
      destruct (spec_deflate s); [destruct (inflate a); [|discriminate]|];
        (apply bind_no_panic; [exact Hr|]); intros [t' d'] _; discriminate.
    - apply take_N_none in E. lia.
  Qed.

  Lemma decompress_no_panic ccols ocols cdata odata :
    sumN (map snd ccols) <= lenN cdata -> sumN (map snd ocols) <= lenN odata ->
    decompress inflate ccols ocols cdata odata <> Panic.
  Proof.
    intros Hc Ho. unfold decompress.
    destruct (negb (any_deflate ccols) && negb (any_deflate ocols)); [discriminate|].
    apply bind_no_panic; [apply uncompress_no_panic, Hc|]. intros c _.
    apply bind_no_panic; [apply uncompress_no_panic, Ho|]. intros o _. discriminate.
  Qed.

  Theorem parse_doc_no_panic b : parse_doc inflate b <> Panic.
  Proof.
    apply bind_no_panic; [apply p_counted_no_panic, p_lpbytes_no_panic|]. intros [actors i1] _.
    apply bind_no_panic; [apply p_counted_no_panic, p_hash_no_panic|]. intros [heads i2] _.
    apply bind_no_panic; [apply p_columns_no_panic|]. intros [ccols i3] Ec.
    apply bind_no_panic; [apply p_columns_no_panic|]. intros [ocols i4] Eo.
    apply (data_no_panic Ec). intros cdata i5 Hc.
    apply (data_no_panic Eo). intros odata i6 Ho.
    apply bind_no_panic; [apply p_suffix_no_panic|]. intros [hidx i7] _.
    apply bind_no_panic; [apply decompress_no_panic; apply N.eq_le_incl; assumption|]. intros [c o] _.
    destruct (negb (parse2_ok (map fst (fst o)))); [discriminate|].
    destruct (negb (parse2_ok (map fst (fst c)))); [discriminate|].
    destruct i7; discriminate.
  Qed.
End WithInflate.

Record WFC (cols : list (N * N)) (data : bytes) : Prop := mkWFC {
  wc_cols : Forall V_col cols;
  wc_n : N.of_nat (length cols) < pow64;
  wc_sorted : normal_sorted (map fst cols) = true;
  wc_nodeflate : existsb spec_deflate (map fst cols) = false;
  wc_layout : parse2_ok (map fst cols) = true;
  wc_data : V_data cols data
}.

Lemma wf_colsb_WFC cols data : wf_colsb cols data = true <-> WFC cols data.
Proof.
  unfold wf_colsb. split.
  - intros H. repeat (apply andb_prop in H; destruct H as [H ?]).
    constructor; unfold V_data; auto with decides.
  - intros [? ? ? ? ? (? & ? & ?)]. repeat (apply andb_true_intro; split; [|auto with decides]). auto with decides.
Qed.

Definition V_idx (hidx : list N) (heads : list bytes) : Prop := hidx = [] \/ length hidx = length heads.

Record WFD (d : doc_body) : Prop := mkWFD {
  wd_actors : Forall V_lp (d_actors d);
  wd_nactors : N.of_nat (length (d_actors d)) < pow64;
  wd_heads : Forall V_hash (d_heads d);
  wd_nheads : N.of_nat (length (d_heads d)) < pow64;
  wd_c : WFC (d_ccols d) (d_cdata d);
  wd_o : WFC (d_ocols d) (d_odata d);
  wd_idx : Forall V_u64 (d_hidx d);
  wd_nidx : V_idx (d_hidx d) (d_heads d)
}.

Lemma V_idxb_spec hidx (heads : list bytes) :
  match hidx with [] => true | _ => Nat.eqb (length hidx) (length heads) end = true <-> V_idx hidx heads.
Proof.
  unfold V_idx. destruct hidx; [tauto|]. rewrite Nat.eqb_eq. split; [auto|]. intros [H|H]; [discriminate|exact H].
Qed.

Lemma V_u64b_spec l : forallb (fun x => x <? pow64) l = true <-> Forall V_u64 l.
Proof. apply forallb_Forall. intros x. apply N.ltb_lt. Qed.

#[local] Hint Resolve -> wf_colsb_WFC V_idxb_spec V_u64b_spec : decides.
#[local] Hint Resolve <- wf_colsb_WFC V_idxb_spec V_u64b_spec : decides.

Lemma wf_doc_WFD d : wf_doc d <-> WFD d.
Proof.
  unfold wf_doc, wf_docb. split.
  - intros H. repeat (apply andb_prop in H; destruct H as [H ?]). constructor; auto with decides.
  - intros []. repeat (apply andb_true_intro; split; [|auto with decides]). auto with decides.
Qed.

Theorem doc_body_roundtrip inflate d : wf_doc d -> parse_doc inflate (write_doc d) = Ok d.
Proof.
  intros Hwf. apply wf_doc_WFD in Hwf.
  destruct Hwf as [Ha Hna Hh Hnh [Cc Cn Cs Cd Cl Cdata] [Oc On Os Od Ol Odata] Hi Hni].
  unfold parse_doc, write_doc.
  rewrite lps_rt by assumption. cbn [bind].
  rewrite <- (map_id (d_heads d)) at 2. rewrite hashes_rt by assumption. cbn [bind].
  rewrite (p_columns_rt _ (d_cdata d)) by assumption. cbn [bind].
  rewrite (p_columns_rt _ (d_odata d)) by assumption. cbn [bind].
  rewrite (V_data_sum _ _ Cdata). cbn [bind]. rewrite p_take_rt. cbn [bind].
  rewrite (V_data_sum _ _ Odata). cbn [bind]. rewrite p_take_rt. cbn [bind].
  rewrite p_suffix_rt by assumption. cbn [bind].
  unfold decompress, any_deflate. rewrite Cd, Od. cbn [negb andb bind fst snd].
  rewrite Cl, Ol. destruct d. reflexivity.
Qed.

Definition no_inflate (_ : bytes) : option bytes := None.

Lemma uncompress_none : forall cols data r,
  uncompress no_inflate cols data = Ok r -> existsb spec_deflate (map fst cols) = false.
Proof.
  induction cols as [|[s l] t IH]; intros data r H; cbn [uncompress map fst existsb] in *; [reflexivity|].
  destruct (take_N l data) as [[a q]|]; [|discriminate].
  destruct (spec_deflate s) eqn:Es; [discriminate|]. cbn [orb].
  apply bind_ok in H. destruct H as ([t' d'] & H & _). eapply IH. exact H.
Qed.

Lemma decompress_none ccols ocols cdata odata c o :
  decompress no_inflate ccols ocols cdata odata = Ok (c, o) ->
  any_deflate ccols = false /\ any_deflate ocols = false /\ c = (ccols, cdata) /\ o = (ocols, odata).
Proof.
  unfold decompress, any_deflate.
  destruct (negb (existsb spec_deflate (map fst ccols)) && negb (existsb spec_deflate (map fst ocols))) eqn:E; intros H.
  - apply andb_true_iff in E. rewrite !negb_true_iff in E. injection H as <- <-. tauto.
  - apply bind_ok in H. destruct H as (x & Hx & H). apply bind_ok in H. destruct H as (y & Hy & _).
    apply uncompress_none in Hx, Hy. rewrite Hx, Hy in E. discriminate.
Qed.

Lemma Forall_wf_concat_hashes (hs : list bytes) : wf_bytes (concat hs) -> Forall wf_bytes hs.
Proof. apply wf_bytes_concat. Qed.

(* A body the reader accepts (no DEFLATE) is byte for byte the writer's encoding of what was read,
   and what was read is well-formed.  [lenN b < pow64]: a Rust slice is shorter than 2^64 bytes. *)
Theorem doc_body_canonical b d :
  wf_bytes b -> lenN b < pow64 -> parse_doc no_inflate b = Ok d -> write_doc d = b /\ wf_doc d.
Proof.
  intros Hwf Hlen H. pose proof (conj Hwf H) as S. clear Hwf H. unfold parse_doc in S.
  apply (can_step lps_can) in S. destruct S as (actors & i1 & -> & [Ha Hna] & S).
  apply (can_step hashes_can) in S. destruct S as (heads & i2 & -> & [Hh Hnh] & S).
  apply p_columns_step in S. destruct S as (craw & i3 & -> & [Hc Hnc] & Hcsort & S).
  apply p_columns_step in S. destruct S as (oraw & i4 & -> & [Ho Hno] & Hosort & S).
  rewrite <- app_assoc in Hlen. apply tail_short in Hlen; [|apply uleb_enc_nonempty].
  repeat apply lenN_app_r in Hlen.
  apply (data_step Hlen) in S. destruct S as (cdata & i5 & -> & -> & Hcdata & S).
  apply lenN_app_r in Hlen.
  apply (data_step Hlen) in S. destruct S as (odata & i6 & -> & -> & Hodata & S).
  apply (can_step (p_suffix_can (length heads))) in S. destruct S as (hidx & i7 & -> & [Hidx Hnidx] & _ & H).
  apply bind_ok in H. destruct H as ([c o] & H1 & H).
  apply decompress_none in H1. destruct H1 as (Dc & Do & -> & ->). cbn [fst snd] in H.
  destruct (parse2_ok (map fst oraw)) eqn:Lo; cbn [negb] in H; [|discriminate].
  destruct (parse2_ok (map fst craw)) eqn:Lc; cbn [negb] in H; [|discriminate].
  destruct i7 as [|x i7]; [|discriminate]. injection H as <-. split.
  - unfold write_doc. cbn [d_actors d_heads d_ccols d_ocols d_cdata d_odata d_hidx].
    rewrite map_id, app_nil_r, <- !app_assoc. reflexivity.
  - apply wf_doc_WFD.
    constructor; cbn [d_actors d_heads d_ccols d_ocols d_cdata d_odata d_hidx]; try assumption;
      constructor; assumption.
Qed.

(* the checksum / hash of a document chunk is a function of what was parsed *)
Corollary doc_hash_stable (Hsh : bytes -> bytes) b d :
  wf_bytes b -> lenN b < pow64 -> parse_doc no_inflate b = Ok d ->
  chunk_hash Hsh CHUNK_DOCUMENT (write_doc d) = chunk_hash Hsh CHUNK_DOCUMENT b.
Proof. intros Hwf Hlen H. destruct (doc_body_canonical b d Hwf Hlen H) as [-> _]. reflexivity. Qed.

Definition ex_doc : doc_body :=
  mkDoc [[1; 2; 3]; [0; 255]] [repeat 7%N 32; repeat 9%N 32]
        [(1, 2); (3, 1); (19, 2)] [(1, 1); (2, 3); (66, 0)] [5; 6; 7; 8; 9] [9; 10; 11; 12] [0; 1].

Example ex_doc_wf : wf_doc ex_doc.
Proof. vm_compute. reflexivity. Qed.

Example ex_doc_roundtrip : parse_doc no_inflate (write_doc ex_doc) = Ok ex_doc.
Proof. exact (doc_body_roundtrip no_inflate ex_doc ex_doc_wf). Qed.

(* the head indexes are parsed and dropped: any values are accepted, so two different chunk bodies
   (hence two different checksums) stand for the same document *)
Theorem parse_doc_head_index_unchecked :
  exists b1 b2 d1 d2, b1 <> b2
    /\ parse_doc no_inflate b1 = Ok d1 /\ parse_doc no_inflate b2 = Ok d2
    /\ d_actors d1 = d_actors d2 /\ d_heads d1 = d_heads d2 /\ d_ccols d1 = d_ccols d2
    /\ d_ocols d1 = d_ocols d2 /\ d_cdata d1 = d_cdata d2 /\ d_odata d1 = d_odata d2
    /\ d_hidx d1 = [0; 1] /\ d_hidx d2 = [77; 18446744073709551615].
Proof.
  pose (d2 := mkDoc (d_actors ex_doc) (d_heads ex_doc) (d_ccols ex_doc) (d_ocols ex_doc)
                    (d_cdata ex_doc) (d_odata ex_doc) [77; 18446744073709551615]).
  exists (write_doc ex_doc), (write_doc d2), ex_doc, d2.
  split; [vm_compute; discriminate|]. split; [exact ex_doc_roundtrip|].
  split; [apply doc_body_roundtrip; vm_compute; reflexivity|].
  cbn. repeat split; reflexivity.
Qed.

(* absent head indexes (the legacy form) are accepted too: the same document in a shorter body *)
Theorem parse_doc_head_index_optional :
  exists b d, parse_doc no_inflate b = Ok d /\ d_heads d <> [] /\ d_hidx d = [].
Proof.
  pose (d := mkDoc (d_actors ex_doc) (d_heads ex_doc) (d_ccols ex_doc) (d_ocols ex_doc)
                   (d_cdata ex_doc) (d_odata ex_doc) []).
  exists (write_doc d), d. split; [apply doc_body_roundtrip; vm_compute; reflexivity|].
  cbn. split; [discriminate|reflexivity].
Qed.

(* with DEFLATE the accepted bodies are not canonical: a compressed column re-encodes to other bytes *)
Theorem parse_doc_compressed_not_canonical :
  exists inflate b d, parse_doc inflate b = Ok d /\ write_doc d <> b.
Proof.
  exists (fun _ => Some [5; 6]).
  exists (write_doc (mkDoc [] [] [(9, 1)] [] [42] [] [])).
  eexists. split; [vm_compute; reflexivity|]. vm_compute. discriminate.
Qed.

(* C17 style: a declared element count above the number of remaining bytes is rejected by the count
   test itself ([p_rep]: no element parser runs, nothing is allocated) *)
Theorem p_counted_count_bound {A} (p : bytes -> res (A * bytes)) n rest :
  n < pow64 -> lenN rest < n -> p_counted p (uleb_enc n ++ rest) = Err.
Proof.
  intros Hn Hlt. unfold p_counted. rewrite uleb_roundtrip by exact Hn. cbn [bind].
  unfold p_rep. assert ((lenN rest <? n) = true) as -> by lia. reflexivity.
Qed.

Theorem parse_doc_count_bound inflate n rest :
  n < pow64 -> lenN rest < n -> parse_doc inflate (uleb_enc n ++ rest) = Err.
Proof.
  intros Hn Hlt. unfold parse_doc. rewrite p_counted_count_bound by assumption. reflexivity.
Qed.
