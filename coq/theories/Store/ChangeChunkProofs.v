(* Store/ChangeChunkProofs.v — the change-chunk body (Store/ChangeChunk.v): the reader inverts the
   writer on every well-formed body, accepts ONLY the writer's output (so decode / re-encode keeps
   the chunk's SHA-256, the change hash) and never panics; then the body inside the chunk framing
   of Store/Chunk.v.  The op columns inside the column data are opaque bytes here.  Also: what the
   framing gives for a bundle chunk whose body is not modelled (Section Bundle), soundness of the
   harness checker of Exec/ChgExec.v ([chk_chg_body_sound]), and that every column list the writer can
   produce passes the reader's layout checks ([writer_layout_accepted]). *)
From AM Require Import Base.Prelude Base.ListFacts Base.Leb128 Base.Sleb128 Base.Sleb128Proofs Gen.Consts
  Store.Chunk Store.ChunkProofs Store.ChangeChunk Exec.ChgExec.
Local Open Scope N_scope.

Lemma wf_bytes_concat (ls : list bytes) : wf_bytes (concat ls) <-> Forall wf_bytes ls.
Proof.
  induction ls as [|a t IH]; cbn [concat].
  - split; constructor.
  - rewrite wf_bytes_app, IH. split.
    + intros [Ha Ht]. constructor; assumption.
    + intros H. inversion H; subst. auto.
Qed.

Lemma lenN_app (a b : bytes) : lenN (a ++ b) = lenN a + lenN b.
Proof. unfold lenN. rewrite app_length. lia. Qed.

Lemma lenN_app_r (a b : bytes) n : lenN (a ++ b) < n -> lenN b < n.
Proof. rewrite lenN_app. lia. Qed.

Lemma app_nonempty {A} (a b : list A) : a <> [] -> a ++ b <> [].
Proof. intros Ha H. apply app_eq_nil in H. tauto. Qed.

(* what follows a non-empty prefix of a Rust slice is shorter than 2^64 - 1 bytes *)
Lemma tail_short (a b : bytes) : lenN (a ++ b) < pow64 -> a <> [] -> lenN b < u64_max.
Proof.
  rewrite lenN_app. destruct a; [congruence|]. unfold lenN, pow64, u64_max. cbn [length]. lia.
Qed.

(* A reader [p], a writer [e] and a validity predicate [V] form a codec when [p] inverts [e] on
   valid values (round trip) and accepts nothing but [e]'s output, of a valid value (canonical
   form).  Canonical forms compose: one step of a reader that is a chain of [let*]. *)
Lemma can_step {A B} {p : bytes -> res (A * bytes)} {e : A -> bytes} {V : A -> Prop}
    {f : A -> bytes -> res B} {l y} :
  (forall l x rest, wf_bytes l -> p l = Ok (x, rest) -> l = e x ++ rest /\ V x) ->
  wf_bytes l /\ (let* (x, i) := p l in f x i) = Ok y ->
  exists x i, l = e x ++ i /\ V x /\ wf_bytes i /\ f x i = Ok y.
Proof.
  intros p_can [Hwf H]. apply bind_ok in H. destruct H as ([x i] & H1 & H).
  apply p_can in H1; [|exact Hwf]. destruct H1 as [-> Hx]. apply wf_bytes_app in Hwf.
  exists x, i. tauto.
Qed.

Lemma p_take_spec n l a r : p_take n l = Ok (a, r) <-> (l = a ++ r /\ lenN a = n).
Proof.
  unfold p_take. destruct (take_N n l) as [[a' r']|] eqn:E.
  - rewrite <- take_N_spec. split; intros H; [inversion H; subst; exact E|congruence].
  - split; [discriminate|]. intros H. apply take_N_spec in H. congruence.
Qed.

Lemma p_take_no_panic n l : p_take n l <> Panic.
Proof. unfold p_take. destruct (take_N n l) as [[a r]|]; discriminate. Qed.

Lemma p_take_rt a r : p_take (lenN a) (a ++ r) = Ok (a, r).
Proof. apply p_take_spec. auto. Qed.

(* validity carries the well-formedness of the value's own bytes *)
Definition V_hash (h : bytes) : Prop := lenN h = HASH_SIZE /\ wf_bytes h.
Definition V_lp (a : bytes) : Prop := wf_bytes a /\ lenN a < pow64.
Definition V_col (c : N * N) : Prop := fst c <= u32_max /\ snd c < pow64.

Lemma p_hash_rt h rest : V_hash h -> p_hash (h ++ rest) = Ok (h, rest).
Proof. unfold p_hash. intros [<- _]. apply p_take_rt. Qed.

Lemma p_hash_can l h rest : wf_bytes l -> p_hash l = Ok (h, rest) -> l = h ++ rest /\ V_hash h.
Proof.
  intros Hwf H. apply p_take_spec in H. destruct H as [-> H]. apply wf_bytes_app in Hwf.
  unfold V_hash. tauto.
Qed.

Lemma p_hash_no_panic l : p_hash l <> Panic.
Proof. apply p_take_no_panic. Qed.

Lemma p_lpbytes_rt a rest : V_lp a -> p_lpbytes (e_lpbytes a ++ rest) = Ok (a, rest).
Proof.
  intros [_ H]. unfold p_lpbytes, e_lpbytes. rewrite <- app_assoc.
  rewrite uleb_roundtrip by exact H. cbn [bind]. apply p_take_rt.
Qed.

Lemma p_lpbytes_can l a rest :
  wf_bytes l -> p_lpbytes l = Ok (a, rest) -> l = e_lpbytes a ++ rest /\ V_lp a.
Proof.
  intros Hwf H. destruct (can_step uleb_canonical (conj Hwf H)) as (n & i & -> & Hn & Hwi & H2).
  apply p_take_spec in H2. destruct H2 as [-> <-]. apply wf_bytes_app in Hwi.
  unfold e_lpbytes, V_lp. rewrite <- app_assoc. tauto.
Qed.

Lemma p_lpbytes_no_panic l : p_lpbytes l <> Panic.
Proof.
  apply bind_no_panic; [apply uleb_dec_no_panic|]. intros [n i] _. apply p_take_no_panic.
Qed.

Lemma e_lpbytes_ne a : e_lpbytes a <> [].
Proof. apply app_nonempty, uleb_enc_nonempty. Qed.

Lemma p_nonzero_rt n rest : 1 <= n < pow64 -> p_nonzero (uleb_enc n ++ rest) = Ok (n, rest).
Proof.
  intros H. unfold p_nonzero. rewrite uleb_roundtrip by lia. cbn [bind].
  assert ((n =? 0) = false) as -> by lia. reflexivity.
Qed.

Lemma p_nonzero_can l n rest :
  wf_bytes l -> p_nonzero l = Ok (n, rest) -> l = uleb_enc n ++ rest /\ 1 <= n < pow64.
Proof.
  intros Hwf H. destruct (can_step uleb_canonical (conj Hwf H)) as (m & i & -> & Hm & _ & H2).
  destruct (m =? 0) eqn:E; [discriminate|]. injection H2 as <- <-. split; [reflexivity|lia].
Qed.

Lemma p_nonzero_no_panic l : p_nonzero l <> Panic.
Proof.
  apply bind_no_panic; [apply uleb_dec_no_panic|]. intros [n i] _. destruct (n =? 0); discriminate.
Qed.

Lemma uleb_u32_can l s rest :
  wf_bytes l -> uleb_dec_u32 l = Ok (s, rest) -> l = uleb_enc s ++ rest /\ s <= u32_max.
Proof.
  intros Hwf H. destruct (can_step uleb_canonical (conj Hwf H)) as (m & i & -> & _ & _ & H2).
  destruct (m <=? u32_max) eqn:E; [|discriminate]. injection H2 as <- <-. split; [reflexivity|lia].
Qed.

Lemma p_colpair_rt c rest : V_col c -> p_colpair (e_colpair c ++ rest) = Ok (c, rest).
Proof.
  destruct c as [s l]. unfold V_col, p_colpair, e_colpair, uleb_dec_u32. cbn [fst snd]. intros [Hs Hl].
  rewrite <- app_assoc. rewrite uleb_roundtrip by (unfold u32_max, pow64 in *; lia). cbn [bind].
  assert ((s <=? u32_max) = true) as -> by lia. cbn [bind].
  rewrite uleb_roundtrip by exact Hl. reflexivity.
Qed.

Lemma p_colpair_can l c rest :
  wf_bytes l -> p_colpair l = Ok (c, rest) -> l = e_colpair c ++ rest /\ V_col c.
Proof.
  intros Hwf H. destruct (can_step uleb_u32_can (conj Hwf H)) as (s & i & -> & Hs & H2).
  destruct (can_step uleb_canonical H2) as (n & j & -> & Hn & _ & H3). injection H3 as <- <-.
  unfold e_colpair, V_col. cbn [fst snd]. rewrite <- app_assoc. tauto.
Qed.

Lemma p_colpair_no_panic l : p_colpair l <> Panic.
Proof.
  apply bind_no_panic; [apply uleb_dec_u32_no_panic|]. intros [s i] _.
  apply bind_no_panic; [apply uleb_dec_no_panic|]. intros [n j] _. discriminate.
Qed.

Lemma e_colpair_ne c : e_colpair c <> [].
Proof. apply app_nonempty, uleb_enc_nonempty. Qed.

Section Rep.
  Context {A : Type} (p : bytes -> res (A * bytes)) (e : A -> bytes) (V : A -> Prop).
  Hypothesis p_rt : forall x rest, V x -> p (e x ++ rest) = Ok (x, rest).
  Hypothesis p_can : forall l x rest, wf_bytes l -> p l = Ok (x, rest) -> l = e x ++ rest /\ V x.
  Hypothesis p_np : forall l, p l <> Panic.
  Hypothesis e_ne : forall x, V x -> e x <> [].

  Lemma rep_nat_rt xs rest :
    Forall V xs -> rep_nat p (length xs) (concat (map e xs) ++ rest) = Ok (xs, rest).
  Proof.
    induction xs as [|x t IH]; intros H; cbn [length rep_nat map concat]; [reflexivity|].
    inversion H as [|? ? Hx Ht]; subst. rewrite <- app_assoc. rewrite p_rt by exact Hx. cbn [bind].
    rewrite IH by exact Ht. reflexivity.
  Qed.

  Lemma rep_nat_can n : forall l xs rest,
    wf_bytes l -> rep_nat p n l = Ok (xs, rest) ->
    l = concat (map e xs) ++ rest /\ Forall V xs /\ length xs = n.
  Proof.
    induction n as [|n IH]; intros l xs rest Hwf H; cbn [rep_nat] in H.
    - injection H as <- <-. cbn. auto.
    - destruct (can_step p_can (conj Hwf H)) as (x & i & -> & Hx & H2).
      destruct (can_step IH H2) as (t & j & -> & [Ht Hn] & _ & H3). injection H3 as <- <-.
      cbn [map concat length]. rewrite <- app_assoc. auto.
  Qed.

  Lemma rep_nat_no_panic n : forall l, rep_nat p n l <> Panic.
  Proof.
    induction n as [|n IH]; intros l; cbn [rep_nat]; [discriminate|].
    apply bind_no_panic; [apply p_np|]. intros [x i] _.
    apply bind_no_panic; [apply IH|]. intros [t j] _. discriminate.
  Qed.

  Lemma p_counted_rt xs rest :
    Forall V xs -> N.of_nat (length xs) < pow64 ->
    p_counted p (uleb_enc (N.of_nat (length xs)) ++ concat (map e xs) ++ rest) = Ok (xs, rest).
  Proof.
    intros Hxs Hn. unfold p_counted. rewrite uleb_roundtrip by exact Hn. cbn [bind].
    unfold p_rep. rewrite Forall_forall in Hxs.
    assert (Hl : (length xs <= length (concat (map e xs)))%nat)
      by exact (concat_length_ge e xs (fun x Hx => e_ne x (Hxs x Hx))).
    assert ((lenN (concat (map e xs) ++ rest) <? N.of_nat (length xs)) = false) as ->.
    { clear - Hl. unfold lenN. rewrite app_length. lia. }
    rewrite Nat2N.id. apply rep_nat_rt, Forall_forall, Hxs.
  Qed.

  (* the count and the elements together are a codec again *)
  Lemma p_counted_can l xs rest :
    wf_bytes l -> p_counted p l = Ok (xs, rest) ->
    l = (uleb_enc (N.of_nat (length xs)) ++ concat (map e xs)) ++ rest
    /\ (Forall V xs /\ N.of_nat (length xs) < pow64).
  Proof.
    intros Hwf H. destruct (can_step uleb_canonical (conj Hwf H)) as (n & i & -> & Hn & Hwi & H2).
    unfold p_rep in H2. destruct (lenN i <? n); [discriminate|].
    apply rep_nat_can in H2; [|exact Hwi]. destruct H2 as (-> & Hxs & Hlen).
    rewrite Hlen, N2Nat.id, app_assoc. auto.
  Qed.

  Lemma p_counted_no_panic l : p_counted p l <> Panic.
  Proof.
    apply bind_no_panic; [apply uleb_dec_no_panic|]. intros [n i] _.
    unfold p_rep. destruct (lenN i <? n); [discriminate|]. apply rep_nat_no_panic.
  Qed.
End Rep.

Lemma col_ranges_nosat : forall raw off,
  off + sumN (map snd raw) <= u64_max -> col_ranges off raw = raw.
Proof.
  induction raw as [|[s l] t IH]; intros off H; cbn [col_ranges]; [reflexivity|].
  cbn [map snd sumN fold_right] in H. fold (sumN (map snd t)) in H.
  unfold sat_add. assert (N.min (off + l) u64_max = off + l) as -> by lia.
  rewrite IH by lia. f_equal. f_equal. lia.
Qed.

Lemma col_ranges_specs : forall raw off, map fst (col_ranges off raw) = map fst raw.
Proof.
  induction raw as [|[s l] t IH]; intros off; cbn [col_ranges map fst]; [reflexivity|].
  rewrite IH. reflexivity.
Qed.

Lemma col_ranges_length raw off : length (col_ranges off raw) = length raw.
Proof. rewrite <- (map_length fst), col_ranges_specs. apply map_length. Qed.

Lemma sum_checked_eq : forall l acc, acc <= u64_max ->
  sum_checked l acc = if acc + sumN l <=? u64_max then Ok (acc + sumN l) else Panic.
Proof.
  induction l as [|x l IH]; intros acc H; cbn [sum_checked sumN fold_right].
  - rewrite N.add_0_r. assert ((acc <=? u64_max) = true) as -> by lia. reflexivity.
  - fold (sumN l). rewrite N.add_assoc. destruct (u64_max <? acc + x) eqn:E.
    + assert ((acc + x + sumN l <=? u64_max) = false) as -> by lia. reflexivity.
    + apply IH. lia.
Qed.

Lemma sum_checked_spec l t : sum_checked l 0 = Ok t <-> t = sumN l /\ sumN l <= u64_max.
Proof.
  rewrite sum_checked_eq, !N.add_0_l by apply N.le_0_l. destruct (sumN l <=? u64_max) eqn:E.
  - apply N.leb_le in E. split; [intros [= <-]; auto|intros [-> _]; reflexivity].
  - apply N.leb_gt in E. split; [discriminate|lia].
Qed.

(* the overflow-checked sum of the range lengths telescopes to the (saturated) final offset *)
Lemma sum_checked_ranges : forall raw off,
  off <= u64_max ->
  sum_checked (map snd (col_ranges off raw)) off = Ok (N.min (off + sumN (map snd raw)) u64_max).
Proof.
  induction raw as [|[s l] t IH]; intros off H; cbn [col_ranges map snd sum_checked sumN fold_right].
  - f_equal. lia.
  - fold (sumN (map snd t)). unfold sat_add.
    assert (off + (N.min (off + l) u64_max - off) = N.min (off + l) u64_max) as -> by lia.
    assert ((u64_max <? N.min (off + l) u64_max) = false) as -> by lia.
    rewrite IH by lia. f_equal. lia.
Qed.

Definition V_data (cols : list (N * N)) (data : bytes) : Prop :=
  sumN (map snd cols) = lenN data /\ lenN data < pow64 /\ wf_bytes data.

Lemma V_data_sum cols data : V_data cols data -> sum_checked (map snd cols) 0 = Ok (lenN data).
Proof. intros (E & H & _). apply sum_checked_spec. unfold pow64, u64_max in *. lia. Qed.

Record WF (c : change_body) : Prop := mkWF {
  wf_deps : Forall V_hash (cb_deps c);
  wf_ndeps : N.of_nat (length (cb_deps c)) < pow64;
  wf_actor : V_lp (cb_actor c);
  wf_seq : cb_seq c < pow64;
  wf_start : 1 <= cb_start_op c < pow64;
  wf_time : in_i64 (cb_time c);
  wf_msg : V_lp (cb_message c);
  wf_msg_utf8 : utf8_valid (cb_message c) = true;
  wf_others : Forall V_lp (cb_others c);
  wf_nothers : N.of_nat (length (cb_others c)) < pow64;
  wf_cols : Forall V_col (cb_cols c);
  wf_ncols : N.of_nat (length (cb_cols c)) < pow64;
  wf_sorted : normal_sorted (map fst (cb_cols c)) = true;
  wf_nodeflate : existsb spec_deflate (map fst (cb_cols c)) = false;
  wf_layout : layout_ok (map fst (cb_cols c)) = true;
  wf_data : V_data (cb_cols c) (cb_data c);
  wf_extra_b : wf_bytes (cb_extra c)
}.

Lemma in_i64b_spec z : in_i64b z = true <-> in_i64 z.
Proof. unfold in_i64b, in_i64. rewrite andb_true_iff. lia. Qed.

Lemma V_hashb_spec l : forallb (fun h => (lenN h =? HASH_SIZE) && wf_bytesb h) l = true <-> Forall V_hash l.
Proof.
  apply forallb_Forall. intros h. unfold V_hash. rewrite andb_true_iff, wf_bytesb_spec, N.eqb_eq. tauto.
Qed.

Lemma V_lpb_spec l : forallb (fun a => wf_bytesb a && (lenN a <? pow64)) l = true <-> Forall V_lp l.
Proof.
  apply forallb_Forall. intros a. unfold V_lp. rewrite andb_true_iff, wf_bytesb_spec, N.ltb_lt. tauto.
Qed.

Lemma V_colb_spec l : forallb (fun c => (fst c <=? u32_max) && (snd c <? pow64)) l = true <-> Forall V_col l.
Proof.
  apply forallb_Forall. intros c. unfold V_col. rewrite andb_true_iff, N.leb_le, N.ltb_lt. tauto.
Qed.

Lemma blist_eqb_spec a b : blist_eqb a b = true <-> a = b.
Proof. apply list_eqb_spec, bytes_eqb_spec. Qed.

(* what the single tests of a well-formedness check decide, in both directions *)
Create HintDb decides.
#[export] Hint Resolve -> N.ltb_lt N.leb_le N.eqb_eq negb_true_iff wf_bytesb_spec in_i64b_spec
  V_hashb_spec V_lpb_spec V_colb_spec : decides.
#[export] Hint Resolve -> bytes_eqb_spec blist_eqb_spec : decides.
#[export] Hint Resolve <- N.ltb_lt N.leb_le N.eqb_eq negb_true_iff wf_bytesb_spec in_i64b_spec
  V_hashb_spec V_lpb_spec V_colb_spec : decides.

Lemma wf_change_body_WF c : wf_change_body c <-> WF c.
Proof.
  unfold wf_change_body, wf_change_bodyb. split.
  - intros H. repeat (apply andb_prop in H; destruct H as [H ?]).
    constructor; unfold V_lp, V_data; auto with decides.
  - intros [? ? [] ? [] ? [] ? ? ? ? ? ? ? ? (? & ? & ?) ?].
    repeat (apply andb_true_intro; split; [|auto with decides]). auto with decides.
Qed.

Lemma hash_ne h : V_hash h -> h <> [].
Proof. intros [H _] ->. discriminate H. Qed.

Definition hashes_rt := p_counted_rt p_hash (fun h => h) V_hash p_hash_rt hash_ne.
Definition hashes_can := p_counted_can p_hash (fun h => h) V_hash p_hash_can.
Definition lps_rt := p_counted_rt p_lpbytes e_lpbytes V_lp p_lpbytes_rt (fun x _ => e_lpbytes_ne x).
Definition lps_can := p_counted_can p_lpbytes e_lpbytes V_lp p_lpbytes_can.
Definition cols_rt := p_counted_rt p_colpair e_colpair V_col p_colpair_rt (fun x _ => e_colpair_ne x).
Definition cols_can := p_counted_can p_colpair e_colpair V_col p_colpair_can.

(* the column list is not a codec by itself: the ranges read are those written only when the
   offsets do not saturate, which the data that follows decides ([V_data], [data_step]) *)
Lemma p_columns_rt cols data rest :
  Forall V_col cols -> N.of_nat (length cols) < pow64 -> normal_sorted (map fst cols) = true ->
  V_data cols data ->
  p_columns (uleb_enc (N.of_nat (length cols)) ++ concat (map e_colpair cols) ++ rest) = Ok (cols, rest).
Proof.
  intros Hc Hn Hs (E & H & _). unfold p_columns. rewrite cols_rt by assumption.
  cbn [bind]. rewrite col_ranges_nosat by (unfold pow64, u64_max in *; lia). rewrite Hs. reflexivity.
Qed.

Lemma p_columns_step {B} {f : list (N * N) -> bytes -> res B} {l y} :
  wf_bytes l /\ (let* (cols, i) := p_columns l in f cols i) = Ok y ->
  exists raw i,
    l = (uleb_enc (N.of_nat (length raw)) ++ concat (map e_colpair raw)) ++ i
    /\ (Forall V_col raw /\ N.of_nat (length raw) < pow64)
    /\ normal_sorted (map fst raw) = true
    /\ wf_bytes i /\ f (col_ranges 0 raw) i = Ok y.
Proof.
  intros [Hwf H]. apply bind_ok in H. destruct H as ([cols i] & H1 & H).
  destruct (can_step cols_can (conj Hwf H1)) as (raw & j & -> & Hraw & Hwj & H2).
  cbv zeta in H2. rewrite col_ranges_specs in H2. destruct (normal_sorted (map fst raw)) eqn:Es; [|discriminate].
  injection H2 as <- <-. exists raw, j. auto.
Qed.

Lemma p_columns_no_panic l : p_columns l <> Panic.
Proof.
  apply bind_no_panic; [apply p_counted_no_panic, p_colpair_no_panic|]. intros [raw i] _.
  cbv zeta. destruct (negb _); discriminate.
Qed.

(* The column data: as many bytes as the ranges add up to.  An input shorter than 2^64 - 1 bytes
   holds them only if the offsets did not saturate. *)
Lemma data_step {B} {raw} {f : bytes -> bytes -> res B} {l y} :
  lenN l < u64_max ->
  wf_bytes l /\ (let* t := sum_checked (map snd (col_ranges 0 raw)) 0 in
                 let* (d, i) := p_take t l in f d i) = Ok y ->
  exists d i, l = d ++ i /\ col_ranges 0 raw = raw /\ V_data raw d /\ wf_bytes i /\ f d i = Ok y.
Proof.
  intros Hl [Hwf H]. rewrite sum_checked_ranges in H by apply N.le_0_l. cbn [bind] in H.
  apply bind_ok in H. destruct H as ([d i] & H1 & H). apply p_take_spec in H1. destruct H1 as [-> Hd].
  apply wf_bytes_app in Hwf. rewrite lenN_app in Hl. exists d, i.
  rewrite col_ranges_nosat by lia. unfold V_data, pow64, u64_max in *. repeat split; try tauto; lia.
Qed.

(* the overflow-checked sum cannot overflow: the offsets saturate *)
Lemma data_no_panic {B l cols rest} {f : bytes -> bytes -> res B} {i} :
  p_columns l = Ok (cols, rest) ->
  (forall d r, sumN (map snd cols) = lenN d -> f d r <> Panic) ->
  (let* t := sum_checked (map snd cols) 0 in let* (d, r) := p_take t i in f d r) <> Panic.
Proof.
  intros H Hf. apply bind_ok in H. destruct H as ([raw j] & _ & H).
  cbv zeta in H. destruct (negb _); [discriminate|]. injection H as <- _.
  pose proof (sum_checked_ranges raw 0 (N.le_0_l _)) as Hs. rewrite Hs. cbn [bind].
  apply sum_checked_spec in Hs. destruct Hs as [Hs _].
  apply bind_no_panic; [apply p_take_no_panic|]. intros [d r] Hd.
  apply p_take_spec in Hd. destruct Hd as [_ Hd]. apply Hf. congruence.
Qed.

Theorem change_body_roundtrip c : wf_change_body c -> parse_body (encode_body c) = Ok c.
Proof.
  intros Hwf. apply wf_change_body_WF in Hwf.
  destruct Hwf as [Hd Hnd Ha Hseq Hst Hti Hm Hutf Ho Hno Hc Hnc Hsort Hdefl Hlay Hdata _].
  unfold parse_body, encode_body. rewrite <- (map_id (cb_deps c)) at 2.
  rewrite hashes_rt by assumption.
  cbn [bind]. rewrite p_lpbytes_rt by assumption. cbn [bind].
  rewrite uleb_roundtrip by assumption. cbn [bind].
  rewrite p_nonzero_rt by assumption. cbn [bind].
  rewrite sleb_roundtrip by assumption. cbn [bind].
  rewrite p_lpbytes_rt by assumption. cbn [bind].
  rewrite Hutf. cbn [negb].
  rewrite lps_rt by assumption.
  cbn [bind].
  rewrite (p_columns_rt _ (cb_data c)) by assumption.
  cbn [bind]. rewrite (V_data_sum _ _ Hdata). cbn [bind]. rewrite p_take_rt. cbn [bind].
  rewrite Hdefl, Hlay. destruct c. reflexivity.
Qed.

(* A body the reader accepts is byte for byte the writer's encoding of what was read, and what
   was read is well-formed.  [lenN b < pow64]: a Rust slice is shorter than 2^64 bytes; it is what
   rules out the saturated column offsets. *)
Theorem change_body_canonical b c :
  wf_bytes b -> lenN b < pow64 -> parse_body b = Ok c -> encode_body c = b /\ wf_change_body c.
Proof.
  intros Hwf Hlen H. pose proof (conj Hwf H) as S. clear Hwf H. unfold parse_body in S.
  apply (can_step hashes_can) in S. destruct S as (deps & i1 & -> & [Hd Hnd] & S).
  apply (can_step p_lpbytes_can) in S. destruct S as (actor & i2 & -> & Ha & S).
  apply (can_step uleb_canonical) in S. destruct S as (seq & i3 & -> & Hseq & S).
  apply (can_step p_nonzero_can) in S. destruct S as (start & i4 & -> & Hst & S).
  apply (can_step sleb_canonical) in S. destruct S as (time & i5 & -> & Hti & S).
  apply (can_step p_lpbytes_can) in S. destruct S as (msg & i6 & -> & Hm & S).
  destruct (utf8_valid msg) eqn:Hutf; cbn [negb] in S; [|destruct S; discriminate].
  apply (can_step lps_can) in S. destruct S as (others & i7 & -> & [Ho Hno] & S).
  apply p_columns_step in S. destruct S as (raw & i8 & -> & [Hraw Hnraw] & Hsort & S).
  rewrite <- app_assoc in Hlen. apply tail_short in Hlen; [|apply uleb_enc_nonempty].
  repeat apply lenN_app_r in Hlen.
  apply (data_step Hlen) in S. destruct S as (data & extra & -> & -> & Hdata & Hwx & H).
  destruct (existsb spec_deflate (map fst raw)) eqn:Hdefl; [discriminate|].
  destruct (layout_ok (map fst raw)) eqn:Hlay; cbn [negb] in H; [|discriminate].
  injection H as <-. split.
  - unfold encode_body. cbn [cb_deps cb_actor cb_seq cb_start_op cb_time cb_message cb_others cb_cols cb_data cb_extra].
    rewrite map_id, <- !app_assoc. reflexivity.
  - apply wf_change_body_WF. constructor; assumption.
Qed.

(* the hash of a change is a function of its chunk bytes: decode / re-encode preserves it *)
Corollary change_hash_stable (Hsh : bytes -> bytes) b c :
  wf_bytes b -> lenN b < pow64 -> parse_body b = Ok c ->
  chunk_hash Hsh CHUNK_CHANGE (encode_body c) = chunk_hash Hsh CHUNK_CHANGE b.
Proof. intros Hwf Hlen H. destruct (change_body_canonical b c Hwf Hlen H) as [-> _]. reflexivity. Qed.

Theorem parse_body_no_panic b : parse_body b <> Panic.
Proof.
  apply bind_no_panic; [apply p_counted_no_panic, p_hash_no_panic|]. intros [deps i1] _.
  apply bind_no_panic; [apply p_lpbytes_no_panic|]. intros [actor i2] _.
  apply bind_no_panic; [apply uleb_dec_no_panic|]. intros [seq i3] _.
  apply bind_no_panic; [apply p_nonzero_no_panic|]. intros [start i4] _.
  apply bind_no_panic; [apply sleb_dec_no_panic|]. intros [time i5] _.
  apply bind_no_panic; [apply p_lpbytes_no_panic|]. intros [msg i6] _.
  destruct (negb (utf8_valid msg)); [discriminate|].
  apply bind_no_panic; [apply p_counted_no_panic, p_lpbytes_no_panic|]. intros [others i7] _.
  apply bind_no_panic; [apply p_columns_no_panic|]. intros [cols i8] Ec.
  apply (data_no_panic Ec). intros data extra _.
  destruct (existsb spec_deflate (map fst cols)); [discriminate|].
  destruct (negb (layout_ok (map fst cols))); discriminate.
Qed.

Section Framed.
  Variable Hsh : bytes -> bytes.
  Hypothesis Hsh_len : forall x, (4 <= length (Hsh x))%nat.
  Variable other : N -> bytes -> option (list change_body).
  Variable inflate : bytes -> option bytes.

  Lemma encode_body_len c : wf_change_body c -> 1 <= lenN (encode_body c).
  Proof using.
    intros _. assert (H : encode_body c <> []) by apply app_nonempty, uleb_enc_nonempty.
    destruct (encode_body c); [congruence|]. unfold lenN. cbn [length]. clear. lia.
  Qed.

  Lemma chunk_body_change c : wf_change_body c -> chunk_body other CHUNK_CHANGE (encode_body c) = Some [c].
  Proof.
    intros Hwf. unfold chunk_body. change (CHUNK_CHANGE =? CHUNK_CHANGE) with true. cbn iota.
    rewrite change_body_roundtrip by exact Hwf. reflexivity.
  Qed.

  (* a written change chunk (MAGIC ‖ checksum ‖ 1 ‖ uleb(len) ‖ encode_body c) followed by anything
     parses back to exactly [c] and leaves the rest *)
  Theorem change_chunk_roundtrip c rest :
    wf_change_body c -> lenN (encode_body c) < pow64 ->
    parse_chunk Hsh change_body (chunk_body other) inflate
      (encode_chunk Hsh CHUNK_CHANGE (encode_body c) ++ rest) = Ok (CHUNK_CHANGE, [c], rest).
  Proof.
    intros Hwf Hlen. apply (parse_written Hsh Hsh_len).
    apply w_plain; [reflexivity|discriminate|exact Hlen|apply chunk_body_change, Hwf].
  Qed.

  (* the compressed form (chunk type 2): for any deflate stream that inflates to the body *)
  Theorem change_chunk_compressed_roundtrip c deflated rest :
    wf_change_body c -> lenN deflated < pow64 -> inflate deflated = Some (encode_body c) ->
    parse_chunk Hsh change_body (chunk_body other) inflate
      (encode_compressed Hsh deflated (encode_body c) ++ rest) = Ok (CHUNK_COMPRESSED, [c], rest).
  Proof.
    intros Hwf Hlen Hinf. apply (parse_written Hsh Hsh_len).
    apply w_compressed with (plain := encode_body c); [exact Hlen|exact Hinf|apply chunk_body_change, Hwf].
  Qed.

  (* raw and compressed chunks of one change carry the same checksum and give the same change *)
  Theorem change_chunk_same_change c deflated :
    wf_change_body c -> lenN (encode_body c) < pow64 -> lenN deflated < pow64 ->
    inflate deflated = Some (encode_body c) ->
    exists ck,
      parse_header (encode_chunk Hsh CHUNK_CHANGE (encode_body c)) = Ok (mkHeader ck CHUNK_CHANGE (encode_body c), [])
      /\ parse_header (encode_compressed Hsh deflated (encode_body c)) = Ok (mkHeader ck CHUNK_COMPRESSED deflated, []).
  Proof.
    intros Hwf Hl1 Hl2 Hinf. exists (checksum_of Hsh CHUNK_CHANGE (encode_body c)).
    rewrite <- (app_nil_r (encode_chunk _ _ _)), <- (app_nil_r (encode_compressed _ _ _)). split.
    - apply (header_plain Hsh Hsh_len change_body (chunk_body other) inflate); [reflexivity|exact Hl1].
    - apply (header_compressed Hsh Hsh_len change_body (chunk_body other) inflate). exact Hl2.
  Qed.
End Framed.

(* A bundle is one chunk of type 3.  Its body (a columnar encoding of several changes,
   storage/bundle/*.rs) is NOT modelled: it is the parameter [body].  What the framing gives:
   whatever changes the body stands for, loading the bundle chunk — into an empty document or into
   one that already holds changes — is applying exactly those changes. *)
Section Bundle.
  Variable Hsh : bytes -> bytes.
  Hypothesis Hsh_len : forall x, (4 <= length (Hsh x))%nat.
  Variable C : Type.
  Variable body : N -> bytes -> option (list C).
  Variable inflate : bytes -> option bytes.
  Variable D : Type.
  Variable empty : D.
  Variable apply : D -> list C -> res D.
  Variable queue_empty : D -> bool.
  Variable is_empty : D -> bool.

  Theorem bundle_load_spec data cs d :
    lenN data < pow64 -> body CHUNK_BUNDLE data = Some cs ->
    load Hsh C body inflate D empty apply queue_empty Ignore (encode_chunk Hsh CHUNK_BUNDLE data) = apply empty cs
    /\ (is_empty d = false ->
        load_incremental Hsh C body inflate D empty apply queue_empty is_empty d (encode_chunk Hsh CHUNK_BUNDLE data)
        = apply d cs).
  Proof.
    intros Hlen Hb.
    assert (W : written Hsh C body inflate (encode_chunk Hsh CHUNK_BUNDLE data) cs CHUNK_BUNDLE)
      by (apply w_plain; [reflexivity|discriminate|exact Hlen|exact Hb]).
    split.
    - exact (load_single Hsh Hsh_len C body inflate D empty apply queue_empty _ _ _ Ignore W).
    - intros He. exact (load_incremental_single Hsh Hsh_len C body inflate D empty apply queue_empty is_empty d _ _ _ He W).
  Qed.
End Bundle.

(* what a [true] of the harness checker [chk_chg_body] means: the implementation's chunk data is
   the writer's encoding of a well-formed body that carries exactly the reported fields *)
Theorem chk_chg_body_sound data deps actor seq start time msg others extra :
  chk_chg_body data deps actor seq start time msg others extra = true ->
  exists c, parse_body data = Ok c /\ encode_body c = data /\ wf_change_body c
    /\ cb_deps c = deps /\ cb_actor c = actor /\ cb_seq c = seq /\ cb_start_op c = start
    /\ cb_time c = time /\ cb_message c = msg /\ cb_others c = others /\ cb_extra c = extra.
Proof.
  unfold chk_chg_body. destruct (parse_body data) as [c| |]; try discriminate.
  unfold fields_eqb. rewrite !andb_true_iff.
  intros [[[[[[[[[Hd Ha] Hs] Hst] Ht] Hm] Ho] He] Henc] Hwf].
  apply Z.eqb_eq in Ht. exists c. repeat split; auto with decides.
Qed.

Fixpoint sublists (l : list N) : list (list N) :=
  match l with
  | [] => [[]]
  | x :: t => map (cons x) (sublists t) ++ sublists t
  end.

Lemma is_sublist_in : forall l ss, is_sublist ss l = true -> In ss (sublists l).
Proof.
  induction l as [|x t IH]; intros ss H.
  - destruct ss; [left; reflexivity|discriminate].
  - cbn [sublists]. apply in_or_app. destruct ss as [|s ss'].
    + right. apply IH. destruct t; reflexivity.
    + cbn [is_sublist] in H. destruct (s =? x) eqn:E.
      * apply N.eqb_eq in E. subst s. left. apply in_map. apply IH. exact H.
      * right. apply IH. exact H.
Qed.

Lemma is_sublist_app : forall a b ss, is_sublist ss (a ++ b) = true ->
  exists s1 s2, ss = s1 ++ s2 /\ is_sublist s1 a = true /\ is_sublist s2 b = true.
Proof.
  induction a as [|x a IH]; intros b ss H.
  - exists [], ss. auto.
  - destruct ss as [|s ss']; [exists [], []; destruct b; auto|].
    cbn [app is_sublist] in H. destruct (s =? x) eqn:E; apply IH in H; destruct H as (s1 & s2 & E12 & H1 & H2).
    + exists (s :: s1), s2. cbn [is_sublist]. rewrite E, E12. auto.
    + exists s1, s2. destruct s1 as [|y s1]; [auto|].
      injection E12 as <- ->. cbn [is_sublist]. rewrite E. auto.
Qed.

(* The finished columns are a stack that the machine only pushes onto: what lies under it plays
   no part. *)
Lemma add_ready_base d d0 s :
  add_ready (d ++ d0) s = let* (l, x) := add_ready d s in Ok (l, x ++ d0).
Proof. unfold add_ready. repeat (destruct (_ =? _); [reflexivity|]). reflexivity. Qed.

Lemma add_gready_base d d0 gs cols s :
  add_gready (d ++ d0) gs cols s = let* (l, x) := add_gready d gs cols s in Ok (l, x ++ d0).
Proof. unfold add_gready. repeat (destruct (_ =? _); [reflexivity|]). reflexivity. Qed.

Lemma add_column_base l d d0 s :
  add_column (l, d ++ d0) s = let* (l', x) := add_column (l, d) s in Ok (l', x ++ d0).
Proof.
  destruct l as [|vs|gs g cols]; cbn [add_column].
  - apply add_ready_base.
  - destruct (_ =? _); [destruct (negb _); reflexivity|apply (add_ready_base (_ :: d))].
  - destruct (negb _); [apply (add_ready_base (_ :: d))|].
    destruct g; [apply add_gready_base|]. destruct (_ =? _); [reflexivity|apply add_gready_base].
Qed.

Lemma add_columns_base d0 : forall ss l d,
  add_columns (l, d ++ d0) ss = let* (l', x) := add_columns (l, d) ss in Ok (l', x ++ d0).
Proof.
  induction ss as [|s t IH]; intros l d; cbn [add_columns]; [reflexivity|].
  rewrite add_column_base. destruct (add_column (l, d) s) as [[l1 d1]| |]; [apply IH|reflexivity..].
Qed.

Lemma add_columns_app a : forall st b,
  add_columns st (a ++ b) = let* st1 := add_columns st a in add_columns st1 b.
Proof.
  induction a as [|s t IH]; intros st b; cbn [app add_columns bind]; [reflexivity|].
  destruct (add_column st s); [apply IH|reflexivity..].
Qed.

Lemma lay_build_base l d d0 : lay_build (l, d ++ d0) = rev d0 ++ lay_build (l, d).
Proof. destruct l; cbn [lay_build]; rewrite ?app_comm_cons, rev_app_distr; reflexivity. Qed.

(* columns that leave the machine ready can be checked apart from those that follow *)
Lemma layout_ok_app a t d :
  add_columns (LReady, []) a = Ok (LReady, d) ->
  layout_ok (a ++ t) = forallb ops_col_ok (rev d) && layout_ok t.
Proof.
  intros Ha. unfold layout_ok, columns_parse2. rewrite add_columns_app, Ha. cbn [bind].
  rewrite (add_columns_base d t LReady [] : add_columns (LReady, d) t = _).
  destruct (add_columns (LReady, []) t) as [[l d']| |]; cbn [bind]; rewrite ?andb_false_r; [|reflexivity..].
  rewrite lay_build_base. apply forallb_app.
Qed.

Lemma normal_sorted_pivot m t : forall a,
  normal_sorted (a ++ [m]) = true -> normal_sorted (m :: t) = true -> normal_sorted (a ++ t) = true.
Proof.
  induction a as [|x [|y a] IH]; cbn [app]; intros Ha Ht.
  - destruct t as [|z t]; [reflexivity|]. cbn [normal_sorted] in Ht. apply andb_true_iff in Ht. exact (proj2 Ht).
  - destruct t as [|z t]; [reflexivity|]. cbn [app normal_sorted] in *.
    apply andb_true_iff in Ha, Ht. destruct Ha as [Ha _], Ht as [Ht Ht']. rewrite Ht', andb_true_r.
    rewrite negb_true_iff, N.ltb_ge in *. lia.
  - cbn [app normal_sorted] in Ha |- *. apply andb_true_iff in Ha. destruct Ha as [Ha Ha'].
    rewrite Ha. exact (IH Ha' Ht).
Qed.

(* [known_specs] in two halves.  A sub-list of the first holds plain columns only: the machine
   stays ready, and none of the columns that [writer_specs_ok] ties together is among them.  So
   2^7 + 2^7 sub-lists are evaluated, not 2^14. *)
Definition head_ok (a : list N) : bool :=
  match add_columns (LReady, []) a with Ok (LReady, d) => forallb ops_col_ok (rev d) | _ => false end
  && normal_sorted (a ++ [86]) && negb (existsb spec_deflate a)
  && negb (has 86 a || has 87 a || has 112 a || has 113 a || has 115 a).

Definition tail_ok (t : list N) : bool :=
  implb (implb (has 87 t) (has 86 t) && Bool.eqb (has 113 t) (has 115 t) && implb (has 113 t) (has 112 t))
        (layout_ok t && normal_sorted (86 :: t) && negb (existsb spec_deflate t)).

Lemma halves_checked :
  forallb head_ok (sublists [1; 2; 17; 19; 21; 52; 66]) = true
  /\ forallb tail_ok (sublists [86; 87; 112; 113; 115; 148; 165]) = true.
Proof. split; vm_compute; reflexivity. Qed.

Theorem writer_layout_accepted ss :
  writer_specs_ok ss = true ->
  layout_ok ss = true /\ normal_sorted ss = true /\ existsb spec_deflate ss = false.
Proof.
  unfold writer_specs_ok. rewrite !andb_true_iff. intros [[[Hsub H1] H2] H3].
  apply (is_sublist_app [1; 2; 17; 19; 21; 52; 66]) in Hsub. destruct Hsub as (a & t & -> & Ha & Ht).
  destruct halves_checked as [Hh Htl]. rewrite forallb_forall in Hh, Htl.
  apply is_sublist_in, Hh in Ha. apply is_sublist_in, Htl in Ht. clear Hh Htl.
  unfold head_ok in Ha. destruct (add_columns (LReady, []) a) as [[[| |] d]| |] eqn:Ea; try discriminate.
  rewrite !andb_true_iff, !negb_true_iff, !orb_false_iff in Ha.
  destruct Ha as [[[Hl Hs] Hd] [[[[N86 N87] N112] N113] N115]].
  unfold has in *. rewrite !existsb_app in H1, H2, H3. rewrite N86, N87, N112, N113, N115 in *. cbn [orb] in *.
  unfold tail_ok, has in Ht. rewrite H1, H2, H3 in Ht. cbn [andb implb] in Ht.
  rewrite !andb_true_iff, negb_true_iff in Ht. destruct Ht as [[Tl Ts] Td].
  split; [|split].
  - rewrite (layout_ok_app a t d Ea), Hl. exact Tl.
  - exact (normal_sorted_pivot 86 t a Hs Ts).
  - rewrite existsb_app, Hd. exact Td.
Qed.
