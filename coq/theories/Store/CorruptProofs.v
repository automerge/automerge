(* Store/CorruptProofs.v — what the chunk checksum buys (C14).

   [accepted_is_canonical]: every byte string the chunk parser accepts is, byte for byte, the
   writer's encoding of the (type, data) pair it carries (magic, the checksum OF THAT PAIR, type,
   minimal LEB128 length, data).  So a corrupted chunk can only be accepted as a DIFFERENT
   (type, data) pair whose 4-byte checksum equals the stored checksum field: a collision of the
   truncated hash when the field is intact, impossible when only the field was hit.
   Compressed change chunks (type 2) are different: the checksum covers the INFLATED bytes, so any
   two deflate streams of one length that inflate to the same bytes are both accepted. *)
From AM Require Import Base.Prelude Base.Leb128 Gen.Consts Store.Chunk Store.ChunkProofs.
Local Open Scope N_scope.

Lemma app_same_length {A} (a b c d : list A) : a ++ b = c ++ d -> length a = length c -> a = c /\ b = d.
Proof.
  revert c; induction a as [|x a IH]; intros [|y c] H Hl; cbn in *; try discriminate.
  - auto.
  - inversion H; subst. destruct (IH c H2) as [-> ->]; [lia|]. auto.
Qed.

Section Corrupt.
  Variable Hsh : bytes -> bytes.
  Hypothesis Hsh_len : forall x, (4 <= length (Hsh x))%nat.
  Variable C : Type.
  Variable body : N -> bytes -> option (list C).
  Variable inflate : bytes -> option bytes.
  Notation parse_chunk := (parse_chunk Hsh C body inflate).
  Notation encode_chunk := (encode_chunk Hsh).
  Notation encode_compressed := (encode_compressed Hsh).
  Notation checksum_of := (checksum_of Hsh).
  Let cklen := checksum_len Hsh Hsh_len C body inflate.

  (* a parsable header is the canonical header of its fields *)
  Lemma header_canonical bs h rest :
    wf_bytes bs -> parse_header bs = Ok (h, rest) ->
    bs = MAGIC_BYTES ++ h_checksum h ++ [h_type h] ++ uleb_enc (lenN (h_data h)) ++ h_data h ++ rest
    /\ length (h_checksum h) = 4%nat /\ valid_type (h_type h) = true /\ lenN (h_data h) < pow64.
  Proof.
    intros Hwf H. unfold parse_header in H.
    destruct (take_n 4 bs) as [[magic i]|] eqn:E1; [|discriminate].
    destruct (negb (bytes_eqb magic MAGIC_BYTES)) eqn:Em; [discriminate|].
    apply negb_false_iff, bytes_eqb_spec in Em. subst magic.
    destruct (take_n 4 i) as [[ck [|ty i3]]|] eqn:E2; try discriminate.
    destruct (negb (valid_type ty)) eqn:Ety; [discriminate|]. apply negb_false_iff in Ety.
    apply take_n_spec in E1, E2. destruct E1 as [-> _], E2 as [-> Hck].
    rewrite !wf_bytes_app in Hwf. destruct Hwf as (_ & _ & Hwf). inversion Hwf as [|? ? _ Hwf3]; subst.
    apply bind_ok in H. destruct H as ([len i4] & E3 & H).
    apply (uleb_canonical _ _ _ Hwf3) in E3. destruct E3 as [-> Hlen].
    destruct (take_N len i4) as [[data r]|] eqn:E4; [|discriminate].
    apply take_N_spec in E4. destruct E4 as [-> <-]. injection H as <- <-.
    cbn [h_checksum h_type h_data]. auto.
  Qed.

  (* every accepted uncompressed chunk is the writer's encoding of its (type, data) *)
  Theorem accepted_is_canonical bs ty cs rest :
    wf_bytes bs -> parse_chunk bs = Ok (ty, cs, rest) -> ty <> CHUNK_COMPRESSED ->
    exists data, bs = encode_chunk ty data ++ rest /\ body ty data = Some cs.
  Proof.
    intros Hwf H Hnc. unfold Chunk.parse_chunk in H.
    destruct (parse_header bs) as [[h r]| |] eqn:Eh; cbn [bind] in H; try discriminate.
    destruct (header_canonical _ _ _ Hwf Eh) as (Hbs & Hck & Hty & Hlen).
    destruct (h_type h =? CHUNK_COMPRESSED) eqn:Ec.
    - destruct (inflate (h_data h)); [|discriminate]. destruct (body CHUNK_CHANGE b); [|discriminate].
      destruct (bytes_eqb _ _); [|discriminate]. inversion H; subst. apply N.eqb_eq in Ec. congruence.
    - destruct (body (h_type h) (h_data h)) as [cs'|] eqn:Eb; [|discriminate].
      destruct (bytes_eqb (checksum_of (h_type h) (h_data h)) (h_checksum h)) eqn:Ek; [|discriminate].
      apply bytes_eqb_spec in Ek. injection H as Et Ecs Er. subst ty cs' rest. exists (h_data h). split; [|exact Eb].
      unfold Chunk.encode_chunk. rewrite Ek. repeat rewrite <- app_assoc. exact Hbs.
  Qed.

  (* C14: [x] stands where the writer put the chunk [encode_chunk ty data] (same length, followed
     by [tail]) but is not that chunk.  If the parser accepts it at all, it accepts it as a
     different (type, data) pair, and that pair's checksum is what the checksum field of [x] says *)
  Theorem corrupted_chunk x tail ty data ty' cs' rest' :
    wf_bytes (x ++ tail) ->
    length x = length (encode_chunk ty data) -> x <> encode_chunk ty data ->
    parse_chunk (x ++ tail) = Ok (ty', cs', rest') -> ty' <> CHUNK_COMPRESSED ->
    exists data', (ty', data') <> (ty, data) /\ x ++ tail = encode_chunk ty' data' ++ rest'
      /\ firstn 4 (skipn 4 (x ++ tail)) = checksum_of ty' data'.
  Proof.
    intros Hwf Hlen Hne Hp Hnc.
    destruct (accepted_is_canonical _ _ _ _ Hwf Hp Hnc) as (data' & Hx & _).
    exists data'. split; [|split; [exact Hx|]].
    - intros E. inversion E; subst. apply Hne.
      apply app_same_length in Hx; [tauto|exact Hlen].
    - rewrite Hx. unfold Chunk.encode_chunk. repeat rewrite <- app_assoc.
      change (skipn 4 (MAGIC_BYTES ++ ?r)) with r.
      rewrite <- (cklen ty' data') at 1. rewrite firstn_app, Nat.sub_diag, firstn_all. cbn [firstn]. apply app_nil_r.
  Qed.

  (* ... so when the checksum field was not hit, acceptance needs a collision of the 4-byte checksum *)
  Corollary corrupted_chunk_collision x tail ty data ty' cs' rest' :
    wf_bytes (x ++ tail) ->
    length x = length (encode_chunk ty data) -> x <> encode_chunk ty data ->
    firstn 4 (skipn 4 x) = checksum_of ty data ->
    parse_chunk (x ++ tail) = Ok (ty', cs', rest') -> ty' <> CHUNK_COMPRESSED ->
    exists data', (ty', data') <> (ty, data) /\ checksum_of ty' data' = checksum_of ty data.
  Proof.
    intros Hwf Hlen Hne Hck Hp Hnc.
    destruct (corrupted_chunk _ _ _ _ _ _ _ Hwf Hlen Hne Hp Hnc) as (data' & Hd & _ & Hf).
    exists data'. split; [exact Hd|]. rewrite <- Hf, <- Hck.
    assert (8 <= length x)%nat.
    { rewrite Hlen. unfold Chunk.encode_chunk. repeat rewrite app_length.
      rewrite cklen. cbn. lia. }
    rewrite skipn_app, firstn_app, skipn_length.
    assert (4 - (length x - 4) = 0)%nat as -> by lia.
    assert (4 - length x = 0)%nat as -> by lia. cbn [skipn firstn]. rewrite app_nil_r. reflexivity.
  Qed.

  (* ... and when ONLY the checksum field was hit, the chunk is rejected outright *)
  Theorem checksum_field_hit ck tail ty data :
    length ck = 4%nat -> ck <> checksum_of ty data ->
    valid_type ty = true -> ty <> CHUNK_COMPRESSED -> lenN data < pow64 ->
    parse_chunk (MAGIC_BYTES ++ ck ++ [ty] ++ uleb_enc (lenN data) ++ data ++ tail) = Err.
  Proof.
    intros Hck Hne Hty Hnc Hlen. unfold Chunk.parse_chunk.
    rewrite (parse_header_written ck ty data tail Hck Hty Hlen). cbn [bind h_type h_data h_checksum].
    assert ((ty =? CHUNK_COMPRESSED) = false) as -> by (apply N.eqb_neq; exact Hnc).
    destruct (body ty data); [|reflexivity].
    destruct (bytes_eqb (checksum_of ty data) ck) eqn:E; [|reflexivity].
    apply bytes_eqb_spec in E. congruence.
  Qed.

  (* compressed change chunks: the full statement of C14 is REFUTED in the model (and in the code:
     the DEFLATE padding bits of the last byte) — the checksum does not cover the deflate stream *)
  Theorem compressed_stream_not_covered d d' plain cs rest :
    lenN d < pow64 -> lenN d' < pow64 -> inflate d = Some plain -> inflate d' = Some plain ->
    body CHUNK_CHANGE plain = Some cs ->
    parse_chunk (encode_compressed d' plain ++ rest) = Ok (CHUNK_COMPRESSED, cs, rest)
    /\ (d <> d' -> encode_compressed d' plain <> encode_compressed d plain).
  Proof.
    intros Hld Hl Hi Hi' Hb. split.
    - apply (parse_written Hsh Hsh_len). apply w_compressed; assumption.
    - intros Hne E. unfold Chunk.encode_compressed in E.
      apply app_inv_head in E. apply app_same_length in E; [|rewrite !cklen; reflexivity].
      destruct E as [_ E]. cbn [app] in E. inversion E as [E'].
      (* equal streams: decode the length prefix on both sides *)
      assert (Hd : uleb_dec (uleb_enc (lenN d') ++ d') = uleb_dec (uleb_enc (lenN d) ++ d)) by (rewrite E'; reflexivity).
      rewrite (uleb_roundtrip _ _ Hl), (uleb_roundtrip _ _ Hld) in Hd. inversion Hd. congruence.
  Qed.
End Corrupt.
