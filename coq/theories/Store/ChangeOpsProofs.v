(* Store/ChangeOpsProofs.v — the op columns of a change (Store/ChangeOps.v): [loop_pos] is plain
   iteration; an input on which the decoder panics; round trips by computation on two examples.  The
   general round trip is stated ([ops_roundtrip_statement]), not proved. *)
From AM Require Import Base.Prelude Base.Leb128 Base.Sleb128 Store.Chunk Store.ChangeChunk Codec.ColEnc
  Codec.ColEncProofs Store.ChangeOps.
Local Open Scope N_scope.

Fixpoint loop_nat {S R} (step : S -> S + R) (n : nat) (s : S) : S + R :=
  match n with
  | O => inl s
  | Datatypes.S k => match step s with inl s1 => loop_nat step k s1 | Datatypes.inr r => Datatypes.inr r end
  end.

Lemma loop_nat_add {S R} (step : S -> S + R) a : forall b s,
  loop_nat step (a + b) s =
  match loop_nat step a s with inl s1 => loop_nat step b s1 | Datatypes.inr r => Datatypes.inr r end.
Proof.
  induction a as [|a IH]; intros b s; cbn [loop_nat Nat.add]; [reflexivity|].
  destruct (step s) as [s1|r]; [apply IH|reflexivity].
Qed.

Lemma loop_pos_nat {S R} (step : S -> S + R) p : forall s,
  loop_pos step p s = loop_nat step (Pos.to_nat p) s.
Proof.
  induction p as [p IH|p IH|]; intros s; cbn [loop_pos].
  - rewrite Pos2Nat.inj_xI.
    replace (2 * Pos.to_nat p)%nat with (Pos.to_nat p + Pos.to_nat p)%nat by lia.
    cbn [loop_nat].
    destruct (step s) as [s0|r]; [|reflexivity].
    rewrite loop_nat_add, <- IH. destruct (loop_pos step p s0) as [s1|r]; [apply IH|reflexivity].
  - rewrite Pos2Nat.inj_xO.
    replace (2 * Pos.to_nat p)%nat with (Pos.to_nat p + Pos.to_nat p)%nat by lia.
    rewrite loop_nat_add, <- IH. destruct (loop_pos step p s) as [s1|r]; [apply IH|reflexivity].
  - change (Pos.to_nat 1) with 1%nat. cbn [loop_nat]. destruct (step s); reflexivity.
Qed.

(* chunk data of a change whose key-actor column is a literal run of i64::MIN items; Change::from_bytes of the
   chunk built from it panics in a debug build (found by the mutation stream of family chg) *)
Definition panic_data : bytes :=
  [1; 176; 17; 17; 53; 246; 184; 121; 222; 138; 119; 255; 75; 147; 226; 110; 121; 17; 119; 179; 199; 206; 208;
   119; 41; 154; 170; 213; 56; 14; 176; 20; 83; 3; 0; 1; 163; 9; 19; 0; 0; 1; 4; 16; 0; 177; 23; 11; 1; 4; 2; 4;
   19; 11; 21; 9; 52; 1; 66; 3; 86; 3; 87; 1; 112; 2; 113; 3; 115; 3; 0; 1; 127; 0; 0; 1; 127; 8; 128; 128; 128;
   128; 128; 128; 128; 128; 128; 127; 1; 126; 2; 107; 49; 4; 240; 159; 152; 128; 2; 126; 5; 3; 126; 20; 0; 127; 2;
   1; 126; 1; 0; 126; 1; 11].

(* a counter above u32::MAX in the obj column: [OpId::new] unwraps (every build) *)
Definition panic_cols : list (N * bytes) :=
  [(1, [127; 0]); (2, [127; 128; 128; 128; 128; 16]); (21, [127; 1; 97]); (52, [1]); (66, [127; 1]); (86, [127; 0]);
   (112, [127; 0])].

Theorem ops_decode_panics :
  parse_change_full panic_data = Panic /\ is_ok (parse_body panic_data) = true /\ decode_ops panic_cols = Panic.
Proof. vm_compute. repeat split. Qed.

Definition ex_ops : list chop :=
  [ mkChop (0, 0) (K_Prop [107; 195; 169]) false 1 (SV_Str [104; 105]) [] false None;
    mkChop (0, 0) (K_Prop [108]) false 2 SV_Null [(3, 0); (3, 1)] false None;
    mkChop (5, 0) (K_Elem (0, 0)) true 1 (SV_Int (-9223372036854775808)) [] false None;
    mkChop (5, 0) (K_Elem (6, 0)) true 1 (SV_Uint 18446744073709551615) [] false None;
    mkChop (5, 0) (K_Elem (7, 0)) true 1 (SV_F64 [24; 45; 68; 84; 251; 33; 9; 64]) [] false None;
    mkChop (5, 0) (K_Elem (8, 0)) true 1 (SV_Counter 10) [] false None;
    mkChop (5, 0) (K_Elem (8, 0)) false 5 (SV_Int (-3)) [(9, 0)] false None;
    mkChop (5, 0) (K_Elem (7, 0)) false 3 SV_Null [(8, 0); (70000, 2)] false None;
    mkChop (5, 1) (K_Elem (2, 2)) true 7 (SV_Bool true) [] true (Some [98; 111; 108; 100]);
    mkChop (5, 1) (K_Elem (4, 2)) true 7 SV_Null [] false None;
    mkChop (0, 0) (K_Prop []) false 1 (SV_Unknown 12 [1; 2; 3]) [(4294967295, 4294967295)] false None;
    mkChop (0, 0) (K_Prop []) false 1 (SV_Timestamp (-5)) [] false None;
    mkChop (0, 0) (K_Prop []) false 1 (SV_Bytes [0; 255]) [] false None;
    mkChop (0, 0) (K_Prop []) false 1 (SV_Bytes [0; 255]) [] false None;
    mkChop (0, 0) (K_Prop []) false 1 (SV_Bytes [0; 255]) [] false None ].

Theorem ex_ops_roundtrip :
  wf_chopsb ex_ops = true /\ decode_ops (encode_ops ex_ops) = Ok ex_ops
  /\ map fst (encode_ops ex_ops) = [1; 2; 17; 19; 21; 52; 66; 86; 87; 112; 113; 115; 148; 165]
  /\ encode_ops [] = [] /\ decode_ops [] = Ok [].
Proof. vm_compute. repeat split. Qed.

(* runs that cross the 64-item mark, all-false expand (the column is omitted), no value bytes *)
Theorem long_run_roundtrip :
  let ops := repeat (mkChop (0, 0) (K_Prop [97]) false 1 SV_Null [] false None) 200
             ++ repeat (mkChop (1, 0) (K_Elem (0, 0)) true 1 (SV_Uint 7) [(1, 0)] false None) 130 in
  wf_chopsb ops = true /\ decode_ops (encode_ops ops) = Ok ops
  /\ map fst (encode_ops ops) = [1; 2; 19; 21; 52; 66; 86; 87; 112; 113; 115].
Proof. vm_compute. repeat split. Qed.

(* the statement that remains to be proved in general (kept visible; see Props/C18.v) *)
Definition ops_roundtrip_statement : Prop :=
  forall ops : list chop, wf_chopsb ops = true -> decode_ops (encode_ops ops) = Ok ops.
