(* The pieces of anonymize.rs behind the renaming (C31).  The actor map is order preserving: ranks in a
   strictly sorted table compare like the actors, and big-endian digit strings of one length compare like
   their values.  The structural substitution is "decode the permuted rank" in the alphabet of the original
   ([struct_replace_decode]); that it keeps UTF-8 lengths and classes and is injective (since the repair of
   the DEL rank, bd9e88bf3) is read off [decode].  Content strings keep their UTF-8 lengths but not always
   the whitespace classes of shape.rs. *)
From AM Require Import Base.Prelude Base.Order Crdt.Types Crdt.Interp Crdt.Doc Crdt.Local Crdt.Anon Crdt.InterpProofs Crdt.AnonProofs.
From Coq Require Import Sorting.Sorted.
Local Open Scope N_scope.

Definition strictly (s : list actor) : Prop := StronglySorted (fun a b => bytes_cmp a b = Lt) s.

Lemma actor_set_strictly l : strictly (actor_set l).
Proof. apply dedup_sorted_strict, isort_sorted, bytes_cmp_total. Qed.

Lemma rank_some_in s a n : rank_of s a = Some n -> In a s.
Proof.
  revert n. induction s as [|b t IH]; intros n; cbn [rank_of]; [discriminate|].
  destruct (nlist_eqb b a) eqn:E; [left; apply bytes_eqb_spec, E|].
  destruct (rank_of t a) as [m|]; [|discriminate]. right. exact (IH m eq_refl).
Qed.

Lemma rank_in s a : In a s -> exists n, rank_of s a = Some n /\ n < N.of_nat (length s).
Proof.
  induction s as [|b t IH]; intros H; [destruct H|]. cbn [rank_of length].
  destruct (nlist_eqb b a) eqn:E; [exists 0; split; [reflexivity|lia]|].
  destruct H as [->|H]; [assert (nlist_eqb a a = true) by (apply bytes_eqb_spec; reflexivity); congruence|].
  destruct (IH H) as (n & Hn & Hl). rewrite Hn. exists (n + 1). split; [reflexivity|lia].
Qed.

Lemma compare_incr a b a' b' :
  (a < b -> a' < b') -> (a = b -> a' = b') -> (b < a -> b' < a') -> (a' ?= b') = (a ?= b).
Proof.
  intros L E G.
  destruct (N.compare_spec a b); [apply N.compare_eq_iff|apply N.compare_lt_iff|apply N.compare_gt_iff]; auto.
Qed.

Lemma rank_mono s : strictly s -> forall a b n m,
  rank_of s a = Some n -> rank_of s b = Some m -> N.compare n m = bytes_cmp a b.
Proof.
  unfold strictly. induction 1 as [|c t St IH Hc]; intros a b n m; cbn [rank_of]; [discriminate|].
  rewrite Forall_forall in Hc.
  destruct (nlist_eqb c a) eqn:Ea, (nlist_eqb c b) eqn:Eb.
  - apply bytes_eqb_spec in Ea, Eb. subst. intros H1 H2. inversion H1; inversion H2; subst.
    rewrite (cmp_refl bytes_cmp bytes_cmp_total). reflexivity.
  - apply bytes_eqb_spec in Ea. subst c. destruct (rank_of t b) as [m'|] eqn:Rb; [|discriminate].
    intros H1 H2. inversion H1; inversion H2; subst.
    rewrite (Hc b (rank_some_in t b m' Rb)). apply N.compare_lt_iff. lia.
  - apply bytes_eqb_spec in Eb. subst c. destruct (rank_of t a) as [n'|] eqn:Ra; [|discriminate].
    intros H1 H2. inversion H1; inversion H2; subst.
    rewrite (cmp_antisym bytes_cmp_total b a), (Hc a (rank_some_in t a n' Ra)). cbn.
    apply N.compare_gt_iff. lia.
  - destruct (rank_of t a) as [n'|] eqn:Ra; [|discriminate]. destruct (rank_of t b) as [m'|] eqn:Rb; [|discriminate].
    intros H1 H2. inversion H1; inversion H2; subst. rewrite <- (IH a b n' m' Ra Rb).
    apply compare_incr; lia.
Qed.

Definition digit (d : N) : Prop := d < 256.

Lemma digit_lt P a d x : a < d -> x < P -> a * P + x < d * P.
Proof. intros H Hx. assert ((a + 1) * P <= d * P) by (apply N.mul_le_mono_r; lia). lia. Qed.

Lemma bev_bound l : Forall digit l -> bev l < 256 ^ N.of_nat (length l).
Proof.
  induction 1 as [|d t Hd Ht IH]; [cbn; lia|].
  cbn [bev length]. rewrite Nat2N.inj_succ, N.pow_succ_r'. apply digit_lt; assumption.
Qed.

Lemma bytes_cmp_bev l1 : forall l2, length l1 = length l2 -> Forall digit l1 -> Forall digit l2 ->
  bytes_cmp l1 l2 = N.compare (bev l1) (bev l2).
Proof.
  induction l1 as [|a t1 IH]; intros [|d t2] Hlen F1 F2; try discriminate Hlen; [reflexivity|].
  injection Hlen as Hlen. inversion F1 as [|? ? Ha Ft1]; subst. inversion F2 as [|? ? Hd Ft2]; subst.
  cbn [bytes_cmp bev]. rewrite <- Hlen.
  pose proof (bev_bound t1 Ft1) as B1. pose proof (bev_bound t2 Ft2) as B2. rewrite <- Hlen in B2.
  set (P := 256 ^ N.of_nat (length t1)) in *.
  destruct (N.compare a d) eqn:E.
  - apply N.compare_eq in E. subst d. rewrite (IH t2) by assumption. symmetry. apply compare_incr; lia.
  - symmetry. apply N.compare_lt_iff. pose proof (digit_lt P a d _ E B1). lia.
  - symmetry. apply N.compare_gt_iff. apply N.compare_gt_iff in E. pose proof (digit_lt P d a _ E B2). lia.
Qed.

Lemma be64_digits n : Forall digit (be64 n) /\ length (be64 n) = 8%nat.
Proof.
  unfold be64. cbn [map length]. split; [|reflexivity].
  repeat constructor; unfold digit; apply N.mod_lt; discriminate.
Qed.

(* the k low base-256 digits of n, most significant first, are worth n mod 256^k: one digit at a time by
   [N.mod_mul_r] (a single [lia] over the eight div/mod pairs of [be64] takes minutes to check) *)
Lemma bev_digits n k :
  bev (map (fun i => (n / 2 ^ (8 * i)) mod 256) (rev (map N.of_nat (seq 0 k)))) = n mod 2 ^ (8 * N.of_nat k).
Proof.
  induction k as [|k IH]; [cbn; apply eq_sym, N.mod_1_r|].
  rewrite seq_S, map_app, rev_app_distr. cbn [map rev app bev plus].
  rewrite IH, map_length, rev_length, map_length, seq_length.
  change 256 with (2 ^ 8). rewrite <- N.pow_mul_r, Nat2N.inj_succ, N.mul_succ_r, N.pow_add_r.
  rewrite N.mod_mul_r by (apply N.pow_nonzero; discriminate). lia.
Qed.

Lemma bev_be64 n : n < 18446744073709551616 -> bev (be64 n) = n.
Proof. intros H. exact (eq_trans (bev_digits n 8) (N.mod_small _ _ H)). Qed.

Lemma be64_mono n m : n < 18446744073709551616 -> m < 18446744073709551616 ->
  bytes_cmp (be64 n) (be64 m) = N.compare n m.
Proof.
  intros Hn Hm. destruct (be64_digits n) as [Dn Ln], (be64_digits m) as [Dm Lm].
  rewrite bytes_cmp_bev by (try assumption; congruence). rewrite !bev_be64 by assumption. reflexivity.
Qed.

Lemma bytes_cmp_prefix p a b : bytes_cmp (p ++ a) (p ++ b) = bytes_cmp a b.
Proof. induction p as [|x p IH]; [reflexivity|]. cbn [app bytes_cmp]. rewrite N.compare_refl. exact IH. Qed.

Theorem anon_actor_mono prefix l a b :
  N.of_nat (length (actor_set l)) <= 18446744073709551616 -> In a l -> In b l ->
  exists x y, anon_actor prefix (actor_set l) a = Ok x /\ anon_actor prefix (actor_set l) b = Ok y /\
              bytes_cmp x y = bytes_cmp a b.
Proof.
  intros Hlen Ha Hb. apply in_actor_set in Ha, Hb.
  destruct (rank_in _ _ Ha) as (n & Hn & Ln), (rank_in _ _ Hb) as (m & Hm & Lm).
  unfold anon_actor. rewrite Hn, Hm. exists (prefix ++ be64 n), (prefix ++ be64 m).
  split; [reflexivity|]. split; [reflexivity|].
  rewrite bytes_cmp_prefix, be64_mono.
  - apply (rank_mono _ (actor_set_strictly l) a b n m Hn Hm).
  - lia.
  - lia.
Qed.

(* case split on every innermost condition *)
Ltac splitifs :=
  repeat match goal with
  | |- context [if ?b then _ else _] =>
    lazymatch b with
    | context [if _ then _ else _] => fail
    | _ => let E := fresh "E" in destruct b eqn:E
    end
  end.

Lemma struct_rank_spec c : valid_char c ->
  let '(al, r, sz) := struct_rank c in sz = alpha_size al /\ r < sz /\ decode al r = c.
Proof.
  intros [V1 V2]. unfold struct_rank.
  destruct (u8w_cases c) as [[H ->]|[[H ->]|[[H ->]|[H ->]]]]; cbv [N.eqb Pos.eqb];
    splitifs; cbn [alpha_size decode]; splitifs; lia.
Qed.

(* structural_character_from_rank: the character of the rank in the original's alphabet *)
Lemma struct_from_rank_spec c r : valid_char c ->
  let '(al, _, _) := struct_rank c in
  r < alpha_size al -> struct_from_rank c r = decode al r.
Proof.
  intros [V1 V2]. unfold struct_rank, struct_from_rank.
  destruct (u8w_cases c) as [[H ->]|[[H ->]|[[H ->]|[H ->]]]]; cbv [N.eqb Pos.eqb];
    splitifs; cbn [alpha_size decode]; intros Hr; splitifs; lia.
Qed.

Lemma decode_u8w al r : r < alpha_size al ->
  u8w (decode al r) = match al with PrintableAscii | AsciiControl => 1 | TwoByte => 2 | ThreeByte => 3 | FourByte => 4 end.
Proof.
  intros H. destruct (u8w_cases (decode al r)) as [[C ->]|[[C ->]|[[C ->]|[C ->]]]];
    destruct al; cbn [alpha_size decode] in *; try reflexivity; revert C; splitifs; lia.
Qed.

Lemma decode_kclass al r : r < alpha_size al ->
  kclass (decode al r) = match al with PrintableAscii => 1 | AsciiControl => 0 | TwoByte => 2 | ThreeByte => 3 | FourByte => 4 end.
Proof.
  intros H. unfold kclass, is_ctl. rewrite (decode_u8w al r H).
  destruct al; cbn [alpha_size decode] in *; splitifs; lia.
Qed.

Lemma struct_rank_decode al r : r < alpha_size al -> struct_rank (decode al r) = (al, r, alpha_size al).
Proof.
  intros H. unfold struct_rank. rewrite (decode_u8w al r H).
  destruct al; cbv [N.eqb Pos.eqb]; cbn [alpha_size decode] in *; splitifs; repeat f_equal; lia.
Qed.

Lemma decode_inj al r al' r' : r < alpha_size al -> r' < alpha_size al' ->
  decode al r = decode al' r' -> al = al' /\ r = r'.
Proof.
  intros H H' E. apply (f_equal struct_rank) in E. rewrite !struct_rank_decode in E by assumption.
  inversion E. split; reflexivity.
Qed.

Lemma struct_replace_decode p c : tables_ok p -> valid_char c ->
  exists al r, r < alpha_size al /\ c = decode al r /\ struct_replace p c = decode al (p al r).
Proof.
  intros Hok V. unfold struct_replace.
  pose proof (struct_rank_spec c V) as S. pose proof (fun r => struct_from_rank_spec c r V) as F.
  destruct (struct_rank c) as [[al r] sz]. destruct S as (-> & Hr & Hd).
  exists al, r. split; [exact Hr|]. split; [symmetry; exact Hd|]. apply F, Hok, Hr.
Qed.

Theorem struct_replace_u8w p c : tables_ok p -> valid_char c -> u8w (struct_replace p c) = u8w c.
Proof.
  intros Hok V. destruct (struct_replace_decode p c Hok V) as (al & r & Hr & -> & ->).
  rewrite !decode_u8w; [reflexivity|exact Hr|apply Hok, Hr].
Qed.

Theorem struct_string_u8w p s : tables_ok p -> Forall valid_char s -> map u8w (struct_string p s) = map u8w s.
Proof.
  intros Hok. unfold struct_string. induction 1 as [|c t Hc Ht IH]; [reflexivity|].
  cbn [map]. rewrite IH, struct_replace_u8w by assumption. reflexivity.
Qed.

Theorem struct_replace_kclass p c : tables_ok p -> valid_char c ->
  kclass (struct_replace p c) = kclass c.
Proof.
  intros Hok V. destruct (struct_replace_decode p c Hok V) as (al & r & Hr & -> & ->).
  rewrite !decode_kclass; [reflexivity|exact Hr|apply Hok, Hr].
Qed.

Theorem struct_replace_inj p c1 c2 : tables_ok p -> tables_inj p ->
  valid_char c1 -> valid_char c2 -> struct_replace p c1 = struct_replace p c2 -> c1 = c2.
Proof.
  intros Hok Hinj V1 V2.
  destruct (struct_replace_decode p c1 Hok V1) as (al1 & r1 & Hr1 & -> & ->).
  destruct (struct_replace_decode p c2 Hok V2) as (al2 & r2 & Hr2 & -> & ->).
  intros E. apply decode_inj in E; [|apply Hok, Hr1|apply Hok, Hr2].
  destruct E as [-> E]. apply Hinj in E; [|assumption|assumption]. subst. reflexivity.
Qed.

Theorem struct_string_inj p s1 : tables_ok p -> tables_inj p ->
  forall s2, Forall valid_char s1 -> Forall valid_char s2 -> struct_string p s1 = struct_string p s2 -> s1 = s2.
Proof.
  intros Hok Hinj. unfold struct_string.
  induction s1 as [|c t IH]; intros [|d u] F1 F2 E; cbn [map] in E; try discriminate E; [reflexivity|].
  inversion F1; inversion F2; subst. injection E as E1 E2.
  f_equal; [eapply struct_replace_inj; eauto|apply IH; assumption].
Qed.

(* adding k modulo n permutes the ranks below n, without a fixed point unless k is 0 or n *)
Lemma shift_mod n k r : r < n -> k <= n -> (r + k) mod n = if r + k <? n then r + k else r + k - n.
Proof.
  intros Hr Hk. destruct (N.ltb_spec (r + k) n); [apply N.mod_small; assumption|].
  symmetry. apply (N.mod_unique _ n 1); lia.
Qed.

Lemma shift_inj n k : k <= n -> forall r1 r2, r1 < n -> r2 < n -> (r1 + k) mod n = (r2 + k) mod n -> r1 = r2.
Proof. intros Hk r1 r2 H1 H2. rewrite !shift_mod by assumption. splitifs; lia. Qed.

Lemma shift_neq n k : 0 < k < n -> forall r, r < n -> (r + k) mod n <> r.
Proof. intros Hk r H. rewrite shift_mod by lia. splitifs; lia. Qed.

(* derangements "add k modulo the alphabet size" (witness tables for the content-class refutation) *)
Definition shift_tables : tables := fun al r =>
  match al with
  | AsciiControl => (r + 23) mod 33
  | PrintableAscii => (r + 1) mod 95
  | TwoByte => (r + 1820) mod 1920
  | ThreeByte => (r + 1) mod 61440
  | FourByte => (r + 1) mod 1048576
  end.

Lemma shift_tables_good : tables_ok shift_tables /\ tables_inj shift_tables /\ tables_derange shift_tables.
Proof.
  unfold tables_ok, tables_inj, tables_derange, shift_tables.
  repeat split; intros al; destruct al; cbn [alpha_size]; first [apply shift_inj|apply shift_neq|intros; apply N.mod_lt]; lia.
Qed.

Theorem content_char_u8w p syn c : tables_ok p -> valid_char c -> syn < 128 ->
  u8w (content_char p syn c) = u8w c.
Proof.
  intros Hok V Hs. unfold content_char. destruct (is_ws c || is_ctl c); [reflexivity|].
  destruct (c <? 128) eqn:E; [|apply struct_replace_u8w; assumption].
  unfold u8w, cp_width. splitifs; lia.
Qed.

(* U+00E9 can become U+0085 (NEL, whitespace) *)
Theorem content_class_refuted :
  exists p, tables_ok p /\ tables_inj p /\ tables_derange p /\
    cclass (content_char p 108 233) <> cclass 233.
Proof.
  exists shift_tables. destruct shift_tables_good as (A & B & C). repeat split; try assumption.
  vm_compute. discriminate.
Qed.

Lemma content_string_u8w p syn s : tables_ok p -> (forall i, syn i < 128) -> Forall valid_char s ->
  map u8w (content_string p syn s) = map u8w s.
Proof.
  intros Hok Hs F. unfold content_string. generalize 0%nat as k.
  induction F as [|c t Hc Ht IH]; intros k; [reflexivity|].
  cbn [length seq combine map fst snd]. rewrite IH, content_char_u8w by auto. reflexivity.
Qed.

Lemma anon_bytes_length syn b : length (anon_bytes syn b) = length b.
Proof.
  unfold anon_bytes. rewrite map_length, combine_length, seq_length. apply Nat.min_id.
Qed.

Theorem anon_scalar_shape p syn fz fu fb v : tables_ok p -> (forall i, syn i < 128) -> scalar_valid v ->
  sshape (anon_scalar p syn fz fu fb v) = sshape v.
Proof.
  intros Hok Hs V. destruct v; cbn [anon_scalar sshape]; try reflexivity.
  - f_equal. apply content_string_u8w; assumption.
  - rewrite anon_bytes_length. reflexivity.
  - rewrite anon_bytes_length. reflexivity.
Qed.

Theorem code_renaming_good prefix p vals incs fh appl hs :
  wf_ids (all_ops appl) ->
  N.of_nat (length (actor_set (hist_actors appl))) <= 18446744073709551616 ->
  tables_ok p -> tables_inj p ->
  (forall k, In k (map_keys (all_ops appl)) -> Forall valid_char k) ->
  (forall o v, In o (all_ops appl) -> op_action o = APut v -> sshape (vals (op_id o) v) = sshape v) ->
  (forall x y, In x (hist_hashes appl hs) -> In y (hist_hashes appl hs) -> fh x = fh y -> x = y) ->
  good_hist (code_renaming prefix (actor_set (hist_actors appl)) p vals incs fh) appl hs.
Proof.
  intros W Hlen Hok Hinj Hkeys Hvals Hh. split; cbn [code_renaming r_actor r_key r_val r_hash]; try assumption.
  - intros a b Ha Hb.
    destruct (anon_actor_mono prefix (hist_actors appl) a b Hlen Ha Hb) as (x & y & -> & -> & E). exact E.
  - intros k1 k2 H1 H2. apply (struct_string_inj p k1 Hok Hinj k2); apply Hkeys; assumption.
  - intros k Hk. apply struct_string_u8w; [exact Hok|apply Hkeys, Hk].
Qed.

(* injectivity on actors is not enough: exchanging actors [1] and [2] reverses the id order of two
   conflicting puts, and the register shows the other winner *)
Definition swap12 : renaming :=
  mkRen (fun a => if nlist_eqb a [1] then [2] else if nlist_eqb a [2] then [1] else a)
        (fun k => k) (fun n => n) (fun _ v => v) (fun _ z => z) (fun h => h).
Definition conflict_ops : list op :=
  [ mkOp (1, [1]) root_id (KMap [120]) false (APut (SInt 7)) [];
    mkOp (1, [2]) root_id (KMap [120]) false (APut (SStr [97])) [] ].

Theorem order_needed :
  (forall a b, In a (id_actors conflict_ops) -> In b (id_actors conflict_ops) ->
     r_actor swap12 a = r_actor swap12 b -> a = b) /\
  shape (observe (map (rn_op swap12) conflict_ops)) <> shape (observe conflict_ops).
Proof.
  split.
  - intros a b Ha Hb. cbn in Ha, Hb.
    destruct Ha as [<-|[<-|[]]], Hb as [<-|[<-|[]]]; vm_compute; intros H; try reflexivity; discriminate H.
  - vm_compute. discriminate.
Qed.

Definition good_tables : tables := fun al r =>
  match al with
  | AsciiControl => if r <? 32 then (r + 1) mod 32 else 32
  | PrintableAscii => (r + 1) mod 95
  | TwoByte => (r + 1) mod 1920
  | ThreeByte => (r + 1) mod 61440
  | FourByte => (r + 1) mod 1048576
  end.

Lemma good_tables_good : tables_ok good_tables /\ tables_inj good_tables.
Proof.
  unfold tables_ok, tables_inj, good_tables.
  split; intros al; destruct al; cbn [alpha_size]; try (first [apply shift_inj|intros; apply N.mod_lt]; lia).
  - intros r Hr. splitifs; lia.
  - intros r1 r2 H1 H2. splitifs; lia.
Qed.

Definition ex_hist : list change :=
  [ mkChange 10 [5; 1] 1 1 []
      [ mkOp (1, [5; 1]) root_id (KMap [116]) false (AMake OText) [];
        mkOp (2, [5; 1]) (1, [5; 1]) (KSeq head_id) true (APut (SStr [233])) [] ];
    mkChange 20 [3] 1 3 [10]
      [ mkOp (3, [3]) root_id (KMap [9; 120]) false (APut (SCounter 1)) [];
        mkOp (4, [3]) (1, [5; 1]) (KSeq head_id) true (APut (SStr [128512])) [] ];
    mkChange 30 [5; 1] 2 3 [10]
      [ mkOp (3, [5; 1]) root_id (KMap [9; 120]) false (APut (SStr [97; 98])) [];
        mkOp (4, [5; 1]) (1, [5; 1]) (KSeq (2, [5; 1])) true (APut (SStr [97])) [] ] ].

Definition ex_renaming : renaming :=
  code_renaming [200; 7] (actor_set (hist_actors ex_hist)) good_tables
    (fun id v => anon_scalar good_tables (fun _ => 108) 42 42 true v) (fun _ _ => 5%Z) (fun h => h + 1).

Lemma ex_good : good_hist ex_renaming ex_hist [20; 30].
Proof.
  destruct good_tables_good as (A & B).
  apply code_renaming_good; try assumption.
  - apply wf_ids_b_sound. vm_compute. reflexivity.
  - vm_compute. discriminate.
  - intros k Hk. cbn in Hk. repeat (destruct Hk as [<-|Hk]; [repeat constructor; unfold valid_char; lia|]). destruct Hk.
  - intros o v Ho Hv. apply anon_scalar_shape; [exact A|intros; lia|].
    cbn in Ho. repeat (destruct Ho as [<-|Ho]; [cbn in Hv; try discriminate Hv; inversion Hv; subst; cbn; repeat constructor; unfold valid_char; lia|]).
    destruct Ho.
  - intros x y _ _ H. lia.
Qed.
