(* Crdt/DocProofs.v — small facts about the change-graph reads of Crdt/Doc.v:
   what heads and missing dependencies are, as sets (C04, C05). *)
From AM Require Import Base.Prelude Base.Order Crdt.Types Crdt.Doc.
Local Open Scope N_scope.

Lemma NoDup_snoc {A} (l : list A) x : NoDup (l ++ [x]) <-> ~ In x l /\ NoDup l.
Proof.
  rewrite <- NoDup_cons_iff. split; apply Permutation_NoDup; [symmetry|]; apply Permutation_cons_append.
Qed.

Lemma nth_error_snoc {A} (l : list A) x i y : nth_error (l ++ [x]) i = Some y ->
  nth_error l i = Some y \/ i = length l /\ y = x.
Proof.
  intros H. destruct (Nat.lt_ge_cases i (length l)) as [Hlt|Hge].
  - left. rewrite nth_error_app1 in H by exact Hlt. exact H.
  - right. rewrite nth_error_app2 in H by exact Hge.
    destruct (i - length l)%nat as [|k] eqn:Ek; [|destruct k; discriminate].
    inversion H. split; [lia|reflexivity].
Qed.

Lemma same_actor_spec a b : same_actor a b = true <-> a = b.
Proof. apply bytes_eqb_spec. Qed.

Lemma has_hash_spec cs h : has_hash cs h = true <-> exists c, In c cs /\ ch_hash c = h.
Proof.
  unfold has_hash. rewrite existsb_exists. split; intros (c & Hc & E); exists c; split; auto; apply N.eqb_eq, E.
Qed.

Lemma has_hash_app a b h : has_hash (a ++ b) h = has_hash a h || has_hash b h.
Proof. apply existsb_app. Qed.

Lemma has_hash_in l c : In c l -> has_hash l (ch_hash c) = true.
Proof. intros Hc. apply has_hash_spec. exists c. auto. Qed.

Lemma has_hash_incl a b h : incl a b -> has_hash a h = true -> has_hash b h = true.
Proof. rewrite !has_hash_spec. intros Hi (c & Hc & He). exists c. auto. Qed.

Lemma ready_spec a c : ready a c = true <-> forall h, In h (ch_deps c) -> has_hash a h = true.
Proof. unfold ready. apply forallb_forall. Qed.

Lemma hashes_app a b : hashes (a ++ b) = hashes a ++ hashes b.
Proof. apply map_app. Qed.

Lemma in_hashes a h : In h (hashes a) <-> exists c, In c a /\ ch_hash c = h.
Proof. unfold hashes. rewrite in_map_iff. split; intros (c & H1 & H2); exists c; auto. Qed.

Lemma has_hash_in_hashes l h : has_hash l h = true <-> In h (hashes l).
Proof. rewrite has_hash_spec, in_hashes. reflexivity. Qed.

Lemma NoDup_hashes_snoc a x : NoDup (hashes (a ++ [x])) <-> ~ In (ch_hash x) (hashes a) /\ NoDup (hashes a).
Proof. rewrite hashes_app. apply NoDup_snoc. Qed.

Lemma NoDup_hash_inj u : NoDup (hashes u) ->
  forall c c', In c u -> In c' u -> ch_hash c = ch_hash c' -> c = c'.
Proof. intros H c c'. exact (NoDup_map_inj ch_hash u c c' H). Qed.

Lemma has_hash_mem u l c :
  (forall c c', In c u -> In c' u -> ch_hash c = ch_hash c' -> c = c') -> incl l u -> In c u ->
  (has_hash l (ch_hash c) = true <-> In c l).
Proof.
  intros Hinj Hl Hc. split; [|apply has_hash_in]. intros H. apply has_hash_spec in H. destruct H as (c' & Hc' & E).
  rewrite <- (Hinj c' c (Hl c' Hc') Hc E). exact Hc'.
Qed.

Lemma sortN_In x l : In x (sortN l) <-> In x l.
Proof. apply In_isort. Qed.

Lemma sortN_perm l : Permutation l (sortN l).
Proof. apply (isort_perm N.compare). Qed.

Lemma sortN_sorted l : sorted N.compare (sortN l).
Proof. apply (isort_sorted N.compare N_cmp_total). Qed.

Lemma sortN_NoDup l : NoDup l -> NoDup (sortN l).
Proof. apply Permutation_NoDup, sortN_perm. Qed.

Lemma sortN_ext l1 l2 : NoDup l1 -> NoDup l2 -> (forall x, In x l1 <-> In x l2) -> sortN l1 = sortN l2.
Proof.
  intros H1 H2 H. apply (isort_perm_eq N.compare N_cmp_total). apply NoDup_Permutation; assumption.
Qed.

Lemma sortN_idem l : sortN (sortN l) = sortN l.
Proof. apply (isort_id N.compare), sortN_sorted. Qed.

Lemma dedupN_In x l : In x (dedupN l) <-> In x l.
Proof.
  induction l as [|y t IH]; cbn; [tauto|].
  destruct (memb N.eqb y t) eqn:E.
  - rewrite IH. split; [auto|]. intros [->|H]; [apply memb_N_In, E|exact H].
  - cbn. rewrite IH. tauto.
Qed.

Lemma dedupN_NoDup l : NoDup (dedupN l).
Proof.
  induction l as [|y t IH]; cbn; [constructor|].
  destruct (memb N.eqb y t) eqn:E; [exact IH|].
  constructor; [|exact IH]. rewrite dedupN_In. intros H. apply memb_N_In in H. congruence.
Qed.

(* C04 / C05: the heads are exactly the applied changes no applied change depends on *)
Theorem heads_spec (appl : list change) (h : N) :
  In h (heads_of appl) <->
  (exists c, In c appl /\ ch_hash c = h) /\ (forall c, In c appl -> ~ In h (ch_deps c)).
Proof.
  unfold heads_of. rewrite sortN_In, filter_In, in_hashes, negb_true_iff, <- not_true_iff_false, existsb_exists.
  apply and_iff_compat_l. split.
  - intros Hn c Hc Hin. apply Hn. exists c. split; [exact Hc|apply memb_N_In, Hin].
  - intros Hn (c & Hc & Hm). exact (Hn c Hc (proj1 (memb_N_In _ _) Hm)).
Qed.

(* C05: get_missing_deps reports exactly the hashes that are neither applied nor held and
   that a held change or one of the given heads needs *)
Theorem missing_deps_spec (d : doc) (hs : list N) (h : N) :
  In h (missing_deps d hs) <->
  has_hash (applied d) h = false /\ has_hash (queue d) h = false /\
  (In h hs \/ exists c, In c (queue d) /\ In h (ch_deps c)).
Proof.
  unfold missing_deps. rewrite sortN_In, dedupN_In, filter_In, negb_true_iff, orb_false_iff, in_app_iff, in_flat_map.
  split.
  - intros [[(c & Hc & Hd)|Hh] [Ha Hq]]; repeat split; auto. right. exists c. auto.
  - intros (Ha & Hq & [Hh|(c & Hc & Hd)]); split; auto. left. exists c. auto.
Qed.

Theorem missing_deps_sorted_nodup (d : doc) (hs : list N) : NoDup (missing_deps d hs).
Proof. apply sortN_NoDup, dedupN_NoDup. Qed.
