(* Proofs about Crdt/Render.v (C32, C33).  [render_unfold] reads one level of [render] through the winner of
   each register ([render_reg]); both C32 theorems are read off it.  C33 is an induction over the JSON value. *)
From AM Require Import Base.Prelude Base.Order Crdt.Types Crdt.Interp Crdt.Render.
Local Open Scope N_scope.

Lemma map_opt_forall2 {A B} (f : A -> option B) l r :
  map_opt f l = Some r -> Forall2 (fun x y => f x = Some y) l r.
Proof.
  revert r. induction l as [|x t IH]; intros r H; cbn [map_opt] in H.
  - inversion H. constructor.
  - destruct (f x) as [y|] eqn:E; [|discriminate]. destruct (map_opt f t) as [r'|]; [|discriminate].
    inversion H; subst. constructor; [exact E|apply IH; reflexivity].
Qed.

Lemma forall2_length {A B} (R : A -> B -> Prop) l r : Forall2 R l r -> length l = length r.
Proof. induction 1; cbn; congruence. Qed.

Lemma map_opt_ext {A B} (f g : A -> option B) l : (forall x, f x = g x) -> map_opt f l = map_opt g l.
Proof. intros H. induction l as [|x t IH]; cbn [map_opt]; [reflexivity|]. rewrite H, IH. reflexivity. Qed.

(* the value a register contributes: its winner (the last, greatest-id entry) and nothing else *)
Definition render_val (f : nat) (ob : obs) (iw : opid * vobs) : option jt :=
  match snd iw with
  | VS s => Some (scalar_jt s)
  | VC z => Some (JI64 z)
  | VO t => render f ob (fst iw) t
  end.
Definition render_reg (f : nat) (ob : obs) (r : regobs) : option jt :=
  match winner r with Some iw => render_val f ob iw | None => None end.

Lemma render_unfold f ob id ty :
  render (S f) ob id ty =
  match find_obj ob id with
  | None => None
  | Some o =>
    match ty, oo_entries o with
    | OText, _ => Some (JStr (text_of o))
    | OList, EL l => match map_opt (render_reg f ob) l with Some items => Some (JSeq None items) | None => None end
    | (OMap | OTable), EM l =>
      match map_opt (fun kr => match render_reg f ob (snd kr) with Some v => Some (fst kr, v) | None => None end) l with
      | Some es => Some (JMap (Some (length l)) es)
      | None => None
      end
    | _, _ => None
    end
  end.
Proof.
  cbn [render]. destruct (find_obj ob id) as [o|]; [|reflexivity].
  assert (E : forall r, match winner r with
                        | Some (_, VS s) => Some (scalar_jt s)
                        | Some (_, VC z) => Some (JI64 z)
                        | Some (i, VO t) => render f ob i t
                        | None => None
                        end = render_reg f ob r).
  { intros r. unfold render_reg, render_val. destruct (winner r) as [[i [s|z|t]]|]; reflexivity. }
  destruct ty; destruct (oo_entries o) as [l|l]; try reflexivity;
    (erewrite (map_opt_ext _ _ l); [reflexivity|]); intros x; rewrite E; reflexivity.
Qed.

Lemma map_opt_keyed {K A B} (g : A -> option B) (l : list (K * A)) es :
  map_opt (fun kr => match g (snd kr) with Some v => Some (fst kr, v) | None => None end) l = Some es ->
  Forall2 (fun kr e => fst e = fst kr /\ g (snd kr) = Some (snd e)) l es.
Proof.
  intros H. apply map_opt_forall2 in H. induction H as [|kr e l' es' He _ IH]; constructor; [|exact IH].
  cbn beta in He. destruct (g (snd kr)) as [v|]; [|discriminate]. inversion He. cbn. auto.
Qed.

Theorem render_faithful f ob id ty t :
  render (S f) ob id ty = Some t ->
  exists o, find_obj ob id = Some o /\
  match ty with
  | OText => t = JStr (text_of o)
  | OList => exists l items, oo_entries o = EL l /\ t = JSeq None items /\
                             Forall2 (fun r v => render_reg f ob r = Some v) l items
  | OMap | OTable => exists l es, oo_entries o = EM l /\ t = JMap (Some (length l)) es /\
                             Forall2 (fun kr e => fst e = fst kr /\ render_reg f ob (snd kr) = Some (snd e)) l es
  end.
Proof.
  rewrite render_unfold. destruct (find_obj ob id) as [o|]; [|discriminate]. intros H. exists o. split; [reflexivity|].
  destruct ty; destruct (oo_entries o) as [l|l]; try discriminate; try (inversion H; reflexivity);
    destruct (map_opt _ l) as [r|] eqn:E; try discriminate; inversion H; subst t; exists l, r.
  - auto using map_opt_keyed.
  - auto using map_opt_forall2.
  - auto using map_opt_keyed.
Qed.

Lemma scalar_ann_ok s : ann_ok (scalar_jt s) = true.
Proof.
  destruct s; try reflexivity. cbn [scalar_jt ann_ok ann_ok1]. rewrite map_length, Nat.eqb_refl. cbn [andb].
  induction b as [|x b IH]; [reflexivity|]. cbn. exact IH.
Qed.

Lemma forallb_forall2 {A B} (R : A -> B -> Prop) (p : B -> bool) l r :
  Forall2 R l r -> (forall x y, R x y -> p y = true) -> forallb p r = true.
Proof. induction 1; intros H'; cbn; [reflexivity|]. rewrite (H' _ _ H). cbn. apply IHForall2. exact H'. Qed.

(* by induction on the depth: a container announces the length of the list its children were rendered from *)
Theorem announced_len_true fuel : forall ob id ty t, render fuel ob id ty = Some t -> ann_ok t = true.
Proof.
  induction fuel as [|f IH]; intros ob id ty t H; [discriminate|].
  assert (Reg : forall r v, render_reg f ob r = Some v -> ann_ok v = true).
  { intros r v Hr. unfold render_reg in Hr. destruct (winner r) as [[i w]|]; [|discriminate].
    unfold render_val in Hr. cbn [fst snd] in Hr. destruct w as [s|z|ty'].
    - inversion Hr. apply scalar_ann_ok.
    - inversion Hr. reflexivity.
    - eapply IH. exact Hr. }
  assert (Mp : forall l es, Forall2 (fun kr e => fst e = fst kr /\ render_reg f ob (snd kr) = Some (snd e)) l es ->
                            ann_ok (JMap (Some (length l)) es) = true).
  { intros l es F. cbn [ann_ok ann_ok1]. rewrite (forall2_length _ _ _ F), Nat.eqb_refl.
    eapply forallb_forall2; [exact F|]. intros kr e [_ He]. exact (Reg _ _ He). }
  destruct (render_faithful f ob id ty t H) as (o & _ & Hty). destruct ty.
  1, 4: destruct Hty as (l & es & _ & -> & F); exact (Mp l es F).
  - destruct Hty as (l & items & _ & -> & F). exact (forallb_forall2 _ _ _ _ F Reg).
  - rewrite Hty. reflexivity.
Qed.

Section JsonInd.
  Variable P : json -> Prop.
  Hypothesis HN : P JN.
  Hypothesis HB : forall b, P (JB b).
  Hypothesis HPos : forall n, P (JPos n).
  Hypothesis HNeg : forall z, P (JNeg z).
  Hypothesis HFl : forall b, P (JFl b).
  Hypothesis HS : forall s, P (JS s).
  Hypothesis HA : forall l, Forall P l -> P (JA l).
  Hypothesis HO : forall l, Forall (fun kv => P (snd kv)) l -> P (JO l).
  Fixpoint json_ind' (j : json) : P j :=
    match j with
    | JN => HN | JB b => HB b | JPos n => HPos n | JNeg z => HNeg z | JFl b => HFl b | JS s => HS s
    | JA l => HA l ((fix go (l : list json) : Forall P l :=
                       match l with [] => Forall_nil _ | x :: t => Forall_cons _ (json_ind' x) (go t) end) l)
    | JO l => HO l ((fix go (l : list (list N * json)) : Forall (fun kv => P (snd kv)) l :=
                       match l with [] => Forall_nil _ | x :: t => Forall_cons _ (json_ind' (snd x)) (go t) end) l)
    end.
End JsonInd.

Lemma dput_fresh {A} (m : list (list N * A)) k v :
  existsb (fun kv => nlist_eqb (fst kv) k) m = false -> dput m k v = m ++ [(k, v)].
Proof.
  induction m as [|[k' v'] m IH]; cbn [existsb dput app fst]; [reflexivity|].
  intros H. apply orb_false_iff in H. destruct H as [H1 H2]. rewrite H1, IH by exact H2. reflexivity.
Qed.

Lemma existsb_key_sym {A} (l : list (list N * A)) k :
  existsb (fun kv => nlist_eqb (fst kv) k) l = existsb (fun kv => nlist_eqb k (fst kv)) l.
Proof.
  induction l as [|[k' v'] l IH]; cbn; [reflexivity|]. rewrite IH. f_equal.
  apply eq_true_iff_eq. split; intros E; apply bytes_eqb_spec in E; apply bytes_eqb_spec; congruence.
Qed.

Lemma import_members (g : json -> dval) l : forall acc,
  nodup_keys l = true ->
  (forall kv, In kv l -> existsb (fun a => nlist_eqb (fst a) (fst kv)) acc = false) ->
  fold_left (fun m kv => dput m (fst kv) (g (snd kv))) l acc = acc ++ map (fun kv => (fst kv, g (snd kv))) l.
Proof.
  induction l as [|[k v] l IH]; intros acc ND Dis; cbn [fold_left map]; [rewrite app_nil_r; reflexivity|].
  cbn [nodup_keys] in ND. apply andb_true_iff in ND. destruct ND as [N1 N2]. apply negb_true_iff in N1.
  cbn [fst snd]. rewrite dput_fresh by (apply (Dis (k, v)); left; reflexivity).
  rewrite IH; [rewrite <- app_assoc; reflexivity|exact N2|].
  intros kv Hin. rewrite existsb_app. cbn [existsb fst]. rewrite orb_false_r.
  rewrite (Dis kv) by (right; exact Hin). cbn [orb].
  destruct (nlist_eqb k (fst kv)) eqn:E; [|reflexivity].
  apply bytes_eqb_spec in E. subst k. rewrite <- N1. symmetry.
  apply existsb_exists. exists kv. split; [exact Hin|]. apply bytes_eqb_spec. reflexivity.
Qed.

(* import then export gives the JSON value back: numbers keep kind and value, strings, keys, arrays and nesting
   are preserved (object members with unique keys, in the order given) *)
Theorem export_import_id j : canon j = true -> export_val (import_val j) = j.
Proof.
  induction j as [| b | n | z | b | s | l IH | l IH] using json_ind'; intros C; cbn [import_val]; try reflexivity.
  - destruct (n <=? i64_max) eqn:E; cbn [export_val export_scalar].
    + replace (Z.of_N n <? 0)%Z with false by (symmetry; apply Z.ltb_ge; lia). rewrite N2Z.id. reflexivity.
    + reflexivity.
  - cbn [canon] in C. apply andb_true_iff in C. destruct C as [C _]. cbn [export_val export_scalar]. rewrite C. reflexivity.
  - cbn [export_val]. f_equal. rewrite map_map. cbn [canon] in C.
    induction IH as [|x t Hx _ IHt]; [reflexivity|]. cbn [map forallb] in *. apply andb_true_iff in C. destruct C as [C1 C2].
    rewrite Hx by exact C1. rewrite IHt by exact C2. reflexivity.
  - cbn [canon] in C. apply andb_true_iff in C. destruct C as [ND C].
    rewrite (import_members import_val l []) by (auto; intros; reflexivity). cbn [app export_val]. f_equal. rewrite map_map. cbn [fst snd].
    clear ND. induction IH as [|[k x] t Hx _ IHt]; [reflexivity|]. cbn [map forallb fst snd] in *.
    apply andb_true_iff in C. destruct C as [C1 C2]. rewrite Hx by exact C1. rewrite IHt by exact C2. reflexivity.
Qed.
