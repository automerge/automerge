(* Crdt/AnonProofs.v — the interpretation is equivariant under renamings (C31).

   A renaming that (on the ids, keys and values the history mentions) preserves the order of op ids,
   is injective on map keys, keeps the character classes of keys and the kind / encoded shape of put
   values, leaves the SHAPE of the observed state unchanged — at the current heads and at every
   historical head set — and maps the change graph to an isomorphic one. *)
From AM Require Import Base.Prelude Base.Order Crdt.Types Crdt.Interp Crdt.Doc Crdt.Local
  Crdt.LocalProofs Crdt.ClockProofs Crdt.Anon Exec.HistExec.
Local Open Scope N_scope.

Lemma list_cmp_total {A} (cmp : A -> A -> comparison) : TotalCmp cmp -> TotalCmp (list_cmp cmp).
Proof.
  intros T. split.
  - induction a as [|x a IH]; intros [|y b]; cbn; try (split; congruence).
    destruct (cmp x y) eqn:E.
    + apply (cmp_eq T) in E. subst. rewrite IH. split; congruence.
    + split; [discriminate|]. intros H; inversion H; subst. rewrite (cmp_refl cmp T) in E. discriminate.
    + split; [discriminate|]. intros H; inversion H; subst. rewrite (cmp_refl cmp T) in E. discriminate.
  - induction a as [|x a IH]; intros [|y b]; cbn; try reflexivity.
    rewrite (cmp_antisym T x y). destruct (cmp x y); cbn; auto.
  - induction a as [|x a IH]; intros [|y b] [|z c]; cbn; try congruence.
    destruct (cmp x y) eqn:E1; destruct (cmp y z) eqn:E2; try congruence.
    + apply (cmp_eq T) in E1, E2. subst. rewrite (cmp_refl cmp T). apply IH.
    + apply (cmp_eq T) in E1. subst. rewrite E2. auto.
    + apply (cmp_eq T) in E2. subst. rewrite E1. auto.
    + intros _ _. rewrite (cmp_trans T _ _ _ E1 E2). reflexivity.
Qed.

Lemma lcmp_total : TotalCmp lcmp.
Proof. apply list_cmp_total, bytes_cmp_total. Qed.

Lemma insert_sorted_map {A B} (ca : A -> A -> comparison) (cb : B -> B -> comparison) (g : A -> B) x l :
  (forall y, In y l -> cb (g x) (g y) = ca x y) ->
  insert_sorted cb (g x) (map g l) = map g (insert_sorted ca x l).
Proof.
  induction l as [|a t IH]; cbn; intros H; [reflexivity|].
  unfold leb. rewrite (H a (or_introl eq_refl)).
  destruct (ca x a); cbn; try reflexivity.
  f_equal. apply IH. intros y Hy. apply H. right. exact Hy.
Qed.

Lemma isort_map_in {A B} (ca : A -> A -> comparison) (cb : B -> B -> comparison) (g : A -> B) l :
  (forall x y, In x l -> In y l -> cb (g x) (g y) = ca x y) ->
  isort cb (map g l) = map g (isort ca l).
Proof.
  induction l as [|a t IH]; cbn; intros H; [reflexivity|].
  rewrite IH by (intros; apply H; right; assumption).
  apply insert_sorted_map. intros y Hy. apply In_isort in Hy. apply H; [left; reflexivity|right; exact Hy].
Qed.

Lemma filter_map_in {A B} (p : A -> bool) (q : B -> bool) (g : A -> B) l :
  (forall x, In x l -> q (g x) = p x) -> filter q (map g l) = map g (filter p l).
Proof.
  induction l as [|a t IH]; cbn; intros H; [reflexivity|].
  rewrite (H a (or_introl eq_refl)), IH by (intros; apply H; right; assumption).
  destruct (p a); reflexivity.
Qed.

Lemma flat_map_map' {A B C} (g : A -> B) (h : B -> list C) l :
  flat_map h (map g l) = flat_map (fun x => h (g x)) l.
Proof. induction l as [|a t IH]; cbn; [reflexivity|]. rewrite IH. reflexivity. Qed.

Lemma map_flat_map' {A B C} (g : B -> C) (h : A -> list B) l :
  map g (flat_map h l) = flat_map (fun x => map g (h x)) l.
Proof. induction l as [|a t IH]; cbn; [reflexivity|]. rewrite map_app, IH. reflexivity. Qed.

Lemma existsb_map_in {A B} (p : A -> bool) (q : B -> bool) (g : A -> B) l :
  (forall x, In x l -> q (g x) = p x) -> existsb q (map g l) = existsb p l.
Proof.
  induction l as [|a t IH]; cbn; intros H; [reflexivity|].
  rewrite (H a (or_introl eq_refl)), IH by (intros; apply H; right; assumption). reflexivity.
Qed.

Lemma memb_map_in {A B} (ea : A -> A -> bool) (eb : B -> B -> bool) (g : A -> B) x l :
  (forall y, In y l -> eb (g x) (g y) = ea x y) -> memb eb (g x) (map g l) = memb ea x l.
Proof.
  induction l as [|a t IH]; cbn; intros H; [reflexivity|].
  rewrite (H a (or_introl eq_refl)), IH by (intros; apply H; right; assumption). reflexivity.
Qed.

Lemma NoDup_map_in {A B} (g : A -> B) l :
  (forall x y, In x l -> In y l -> g x = g y -> x = y) -> NoDup l -> NoDup (map g l).
Proof.
  induction l as [|a t IH]; cbn; intros H ND; [constructor|].
  inversion ND as [|? ? Hn NDt]; subst. constructor.
  - intros Hin. apply in_map_iff in Hin. destruct Hin as (y & Hy & Hyt).
    assert (y = a) by (apply H; [right; exact Hyt|left; reflexivity|exact Hy]). subst. contradiction.
  - apply IH; [|exact NDt]. intros x y Hx Hy. apply H; right; assumption.
Qed.

Lemma NoDup_actor_set l : NoDup (actor_set l).
Proof. apply NoDup_dedup_sorted, isort_sorted, bytes_cmp_total. Qed.

Lemma in_actor_set l x : In x (actor_set l) <-> In x l.
Proof. unfold actor_set. rewrite in_dedup_sorted. apply In_isort. Qed.

Lemma actor_set_map g l : (forall x y, In x l -> In y l -> g x = g y -> x = y) ->
  Permutation (actor_set (map g l)) (map g (actor_set l)).
Proof.
  intros Hg. apply NoDup_Permutation.
  - apply NoDup_actor_set.
  - apply NoDup_map_in; [|apply NoDup_actor_set]. intros x y Hx Hy. apply Hg; apply in_actor_set; assumption.
  - intros x. rewrite in_actor_set, !in_map_iff.
    split; intros (k & E & Hk); exists k; (split; [exact E|apply in_actor_set; exact Hk]).
Qed.

(* relative to the ops of the history: nothing is asked of ids / keys / values that do not occur *)
Record good_on (R : renaming) (ops0 : list op) : Prop := {
  g_mono : forall x y, In x (ids_of ops0) -> In y (ids_of ops0) ->
           opid_cmp (rn_id R x) (rn_id R y) = opid_cmp x y;
  g_kinj : forall k1 k2, In k1 (map_keys ops0) -> In k2 (map_keys ops0) -> r_key R k1 = r_key R k2 -> k1 = k2;
  g_kshape : forall k, In k (map_keys ops0) -> map u8w (r_key R k) = map u8w k;
  g_val : forall o v, In o ops0 -> op_action o = APut v -> sshape (r_val R (op_id o) v) = sshape v }.

Lemma in_ids ops o x : In o ops -> In x (op_ids o) -> In x (ids_of ops).
Proof. intros Ho Hx. right. apply in_flat_map. exists o. split; assumption. Qed.

Lemma in_ids_id ops o : In o ops -> In (op_id o) (ids_of ops).
Proof. intros Ho. apply (in_ids ops o _ Ho). left. reflexivity. Qed.

Lemma in_ids_ref ops o e : In o ops -> op_key o = KSeq e -> In e (ids_of ops).
Proof. intros Ho K. apply (in_ids ops o _ Ho). unfold op_ids. rewrite K. right. right. left. reflexivity. Qed.

Lemma counter_sshape v : (match v with SCounter _ => true | _ => false end) = (hd 0 (sshape v) =? 7).
Proof. destruct v; reflexivity. Qed.

Lemma put_shape ids x l o v : op_action o = APut v ->
  option_map (fun w => vshape ids (x, w)) (vobs_of l o) = Some (sshape v).
Proof. intros E. unfold vobs_of. rewrite E. destruct v; reflexivity. Qed.

Definition regsh (ids : list opid) (ctx : list op) (k : key) (o : op) : list (list N) :=
  if visible ctx o && negb (is_mark o) then
    match option_map (fun v => vshape ids (op_id o, v)) (vobs_of ctx o) with
    | Some s => if key_eqb (slot o) k then [s] else []
    | None => []
    end
  else [].

Lemma rshape_register ids l k : rshape ids (register (vis_ops l) k) = flat_map (regsh ids l k) l.
Proof.
  unfold rshape, register, vis_ops. rewrite flat_map_flat_map, map_flat_map'. apply flat_map_ext. intros o.
  unfold regsh. destruct (visible l o && negb (is_mark o)); [|reflexivity].
  destruct (vobs_of l o); [|reflexivity].
  cbn [flat_map fst snd]. destruct (key_eqb (slot o) k); reflexivity.
Qed.

Section Equiv.
  Variable R : renaming.
  Variable ops0 : list op.
  Hypothesis G : good_on R ops0.
  Notation f := (rn_op R).
  Notation rn := (rn_id R).
  Let D (x : opid) : Prop := In x (ids_of ops0).

  Lemma D_root : D root_id.
  Proof. left. reflexivity. Qed.

  Lemma eqb_rn x y : D x -> D y -> opid_eqb (rn x) (rn y) = opid_eqb x y.
  Proof. intros Hx Hy. unfold opid_eqb, eqb_of. rewrite (g_mono _ _ G x y Hx Hy). reflexivity. Qed.

  Lemma action_kind_rn o :
    is_inc (f o) = is_inc o /\ is_del (f o) = is_del o /\ is_mark (f o) = is_mark o /\ make_type (f o) = make_type o.
  Proof.
    unfold is_inc, is_del, is_mark, make_type. cbn [rn_op op_action]. destruct (op_action o); repeat split; reflexivity.
  Qed.

  Lemma is_counter_rn o : In o ops0 -> is_counter (f o) = is_counter o.
  Proof.
    intros Ho. unfold is_counter. cbn [rn_op op_action].
    destruct (op_action o) eqn:E; cbn [rn_action]; try reflexivity.
    rewrite !counter_sshape, (g_val _ _ G o v Ho E). reflexivity.
  Qed.

  Lemma names_rn s o : In s ops0 -> In o ops0 -> names (f s) (f o) = names s o.
  Proof.
    intros Hs Ho. unfold names. cbn [rn_op op_id op_pred]. apply memb_map_in.
    intros y Hy. apply eqb_rn; [apply in_ids_id; exact Ho|apply (in_ids ops0 s y Hs); right; right; apply in_or_app; right; exact Hy].
  Qed.

  Lemma hides_rn o s : In o ops0 -> In s ops0 -> hides (f o) (f s) = hides o s.
  Proof.
    intros Ho Hs. unfold hides. destruct (action_kind_rn s) as (-> & _).
    rewrite names_rn, is_counter_rn by assumption. reflexivity.
  Qed.

  Lemma visible_rn l o : incl l ops0 -> In o ops0 -> visible (map f l) (f o) = visible l o.
  Proof.
    intros Hl Ho. unfold visible. destruct (action_kind_rn o) as (-> & -> & _).
    f_equal. f_equal. apply existsb_map_in. intros s Hs. apply hides_rn; [exact Ho|apply Hl, Hs].
  Qed.

  Lemma idx_rn ids x : Forall D ids -> D x -> idx (map rn ids) (rn x) = idx ids x.
  Proof.
    induction 1 as [|y t Hy Ht IH]; cbn [map idx]; intros Hx; [reflexivity|].
    rewrite eqb_rn by assumption. destruct (opid_eqb y x); [reflexivity|]. rewrite IH by assumption. reflexivity.
  Qed.

  Lemma vobs_shape ids l o : In o ops0 -> Forall D ids ->
    option_map (fun v => vshape (map rn ids) (rn (op_id o), v)) (vobs_of (map f l) (f o))
    = option_map (fun v => vshape ids (op_id o, v)) (vobs_of l o).
  Proof.
    intros Ho Hi. destruct (op_action o) eqn:E.
    { rewrite (put_shape _ _ l o v E), (put_shape _ _ (map f l) (f o) (r_val R (op_id o) v))
        by (cbn [rn_op op_action]; rewrite E; reflexivity).
      f_equal. apply (g_val _ _ G o v Ho E). }
    all: unfold vobs_of; cbn [rn_op op_action]; rewrite E; cbn [rn_action option_map]; try reflexivity.
    cbn [vshape snd fst]. rewrite idx_rn by (try apply in_ids_id; assumption). reflexivity.
  Qed.

  Lemma slot_rn o : slot (f o) = rn_key R (slot o).
  Proof.
    unfold slot. cbn [rn_op op_key op_insert op_id]. destruct (op_key o); cbn [rn_key]; [reflexivity|].
    destruct (op_insert o); reflexivity.
  Qed.

  Definition KD (k : key) : Prop :=
    match k with KMap s => In s (map_keys ops0) | KSeq e => D e end.

  Lemma key_eqb_rn a b : KD a -> KD b -> key_eqb (rn_key R a) (rn_key R b) = key_eqb a b.
  Proof.
    destruct a as [s|e], b as [s0|e0]; cbn [rn_key key_eqb KD]; intros Ha Hb; try reflexivity.
    - apply eq_true_iff_eq. rewrite !bytes_eqb_spec. split; [apply (g_kinj _ _ G); assumption|intros ->; reflexivity].
    - apply eqb_rn; assumption.
  Qed.

  Lemma slot_KD o : In o ops0 -> KD (slot o).
  Proof.
    intros Ho. unfold slot. destruct (op_key o) eqn:E; cbn [KD].
    - unfold map_keys. apply in_flat_map. exists o. split; [exact Ho|]. rewrite E. left. reflexivity.
    - destruct (op_insert o); [apply in_ids_id; exact Ho|exact (in_ids_ref ops0 o e Ho E)].
  Qed.

  Lemma register_rn ids l k : incl l ops0 -> KD k -> Forall D ids ->
    rshape (map rn ids) (register (vis_ops (map f l)) (rn_key R k)) = rshape ids (register (vis_ops l) k).
  Proof.
    intros Hl Hk Hi. rewrite !rshape_register, flat_map_map'. apply flat_map_ext_in.
    intros o Ho. apply Hl in Ho. unfold regsh.
    destruct (action_kind_rn o) as (_ & _ & -> & _). rewrite visible_rn, slot_rn by assumption.
    rewrite key_eqb_rn by (try apply slot_KD; assumption).
    change (op_id (f o)) with (rn (op_id o)). rewrite vobs_shape by assumption. reflexivity.
  Qed.

  Lemma insert_after_rn r x l : D r -> Forall D l ->
    insert_after (rn r) (rn x) (map rn l) = map rn (insert_after r x l).
  Proof.
    intros Hr. induction 1 as [|y t Hy Ht IH]; cbn [map insert_after]; [reflexivity|].
    rewrite eqb_rn by assumption. destruct (opid_eqb y r); cbn [map]; [reflexivity|]. rewrite IH. reflexivity.
  Qed.

  Lemma ref_of_rn o : ref_of (f o) = rn (ref_of o).
  Proof. unfold ref_of. cbn [rn_op op_key]. destruct (op_key o); reflexivity. Qed.

  Lemma D_ref_of o : In o ops0 -> D (ref_of o).
  Proof.
    intros Ho. unfold ref_of. destruct (op_key o) eqn:E; [apply D_root|exact (in_ids_ref ops0 o e Ho E)].
  Qed.

  Lemma place_rn acc o : In o ops0 -> Forall D acc -> place (map rn acc) (f o) = map rn (place acc o).
  Proof.
    intros Ho Ha. unfold place. rewrite ref_of_rn.
    assert (E : opid_eqb (rn (ref_of o)) head_id = opid_eqb (ref_of o) head_id)
      by (exact (eqb_rn _ _ (D_ref_of o Ho) D_root)).
    rewrite E. destruct (opid_eqb (ref_of o) head_id); [reflexivity|].
    change (op_id (f o)) with (rn (op_id o)). apply insert_after_rn; [apply D_ref_of, Ho|exact Ha].
  Qed.

  Lemma fold_place_rn l : incl l ops0 -> forall acc, Forall D acc ->
    fold_left place (map f l) (map rn acc) = map rn (fold_left place l acc).
  Proof.
    induction l as [|o t IH]; cbn [map fold_left]; intros Hl acc Ha; [reflexivity|].
    rewrite place_rn by (try apply Hl; try left; auto).
    apply incl_cons_inv in Hl. destruct Hl as [Ho Ht]. apply IH; [exact Ht|].
    apply (Permutation_Forall (Permutation_sym (place_perm acc o))). constructor; [|exact Ha].
    apply in_ids_id, Ho.
  Qed.

  Lemma elem_order_rn l : incl l ops0 -> elem_order (map f l) = map rn (elem_order l).
  Proof.
    intros Hl. unfold elem_order.
    rewrite (filter_map_in op_insert op_insert f l) by (intros; reflexivity).
    exact (fold_place_rn (filter op_insert l) (incl_tran (incl_filter _ l) Hl) [] (Forall_nil _)).
  Qed.

  Lemma map_keys_rn l : map_keys (map f l) = map (r_key R) (map_keys l).
  Proof.
    unfold map_keys. rewrite flat_map_map', map_flat_map'. apply flat_map_ext_in. intros o _.
    cbn [rn_op op_key]. destruct (op_key o); reflexivity.
  Qed.

  Lemma map_keys_sub l k : incl l ops0 -> In k (map_keys l) -> In k (map_keys ops0).
  Proof.
    intros Hl H. unfold map_keys in *. apply in_flat_map in H. destruct H as (o & Ho & Hk).
    apply in_flat_map. exists o. split; [apply Hl, Ho|exact Hk].
  Qed.

  Lemma observe_obj_rn ids l id t : incl l ops0 -> Forall D ids ->
    oshape (map rn ids) (observe_obj (map f l) (rn id) t) = oshape ids (observe_obj l id t).
  Proof.
    intros Hl Hids. unfold observe_obj.
    destruct (is_seq_type t); unfold oshape; cbn [oo_type oo_entries]; f_equal.
    - rewrite elem_order_rn by exact Hl. rewrite !map_flat_map', flat_map_map'.
      apply flat_map_ext_in. intros e He. destruct (elem_order_in _ _ He) as (o & Ho & <-).
      assert (Hk : KD (KSeq (op_id o))) by (cbn [KD]; apply in_ids_id, Hl, Ho).
      pose proof (register_rn ids l (KSeq (op_id o)) Hl Hk Hids) as Rg. cbn [rn_key] in Rg.
      destruct (register (vis_ops (map f l)) _), (register (vis_ops l) _); try discriminate Rg; [reflexivity|].
      cbn [map]. f_equal. exact Rg.
    - apply (isort_perm_eq lcmp lcmp_total). rewrite map_keys_rn.
      assert (Hsub : forall k, In k (actor_set (map_keys l)) -> In k (map_keys ops0))
        by (intros k Hk; apply (map_keys_sub l k Hl), in_actor_set, Hk).
      rewrite (actor_set_map (r_key R) (map_keys l))
        by (intros x y Hx Hy; apply (g_kinj _ _ G); eapply map_keys_sub; eassumption).
      rewrite !map_flat_map', flat_map_map'.
      erewrite flat_map_ext_in; [reflexivity|]. intros k Hk.
      assert (Hkd : KD (KMap k)) by (apply Hsub, Hk).
      pose proof (register_rn ids l (KMap k) Hl Hkd Hids) as Rg. cbn [rn_key] in Rg.
      destruct (register (vis_ops (map f l)) _), (register (vis_ops l) _); try discriminate Rg; [reflexivity|].
      unfold eshape. cbn [map fst snd]. rewrite Rg, (g_kshape _ _ G k Hkd). reflexivity.
  Qed.

  Lemma objects_rn l : objects (map f l) = map (fun ot => (rn (fst ot), snd ot)) (objects l).
  Proof.
    unfold objects. cbn [map fst snd]. f_equal.
    rewrite flat_map_map', map_flat_map'. apply flat_map_ext_in. intros o _.
    destruct (action_kind_rn o) as (_ & _ & _ & ->). destruct (make_type o); reflexivity.
  Qed.

  Lemma objects_D l ot : incl l ops0 -> In ot (objects l) -> D (fst ot).
  Proof.
    intros Hl Hot. destruct (objects_ids l ot Hot) as [->|(o & Ho & <-)]; [apply D_root|apply in_ids_id, Hl, Ho].
  Qed.

  Theorem shape_observe_rn ops : incl ops ops0 -> shape (observe (map f ops)) = shape (observe ops).
  Proof.
    intros Hs. unfold observe.
    rewrite (isort_map_in op_cmp op_cmp f ops)
      by (intros x y Hx Hy; unfold op_cmp; cbn [rn_op op_id]; apply (g_mono _ _ G); apply in_ids_id, Hs; assumption).
    set (so := isort op_cmp ops).
    assert (Hso : incl so ops0) by (intros o Ho; apply Hs; apply In_isort in Ho; exact Ho).
    unfold shape. rewrite !observe_ids, objects_rn.
    replace (map fst (map (fun ot : opid * objtype => (rn (fst ot), snd ot)) (objects so)))
      with (map rn (map fst (objects so))) by (rewrite !map_map; reflexivity).
    unfold observe_sorted. rewrite objects_rn, !map_map. apply map_ext_in. intros [id t] Hot. cbn [fst snd].
    rewrite <- (map_map fst rn (objects so)).
    rewrite (filter_map_in (fun o => opid_eqb (op_obj o) id) (fun o => opid_eqb (op_obj o) (rn id)) f so)
      by (intros o Ho; cbn [rn_op op_obj]; apply eqb_rn;
          [apply (in_ids ops0 o (op_obj o) (Hso o Ho)); right; left; reflexivity|exact (objects_D so (id, t) Hso Hot)]).
    apply observe_obj_rn; [exact (incl_tran (incl_filter _ so) Hso)|].
    apply Forall_map, Forall_forall. intros ot. apply objects_D, Hso.
  Qed.
End Equiv.

Lemma u8w_cases c :
  c < 128 /\ u8w c = 1 \/ 128 <= c < 2048 /\ u8w c = 2 \/ 2048 <= c < 65536 /\ u8w c = 3 \/ 65536 <= c /\ u8w c = 4.
Proof.
  unfold u8w, cp_width.
  destruct (N.ltb_spec c 128); [|destruct (N.ltb_spec c 2048); [|destruct (N.ltb_spec c 65536)]]; lia.
Qed.

Lemma class_width_cclass e c : class_width e (u8w c) = cp_width e c.
Proof.
  destruct e; [reflexivity|reflexivity|]. unfold class_width, cp_width.
  destruct (u8w_cases c) as [[H ->]|[[H ->]|[[H ->]|[H ->]]]]; destruct (N.ltb_spec c 65536); try reflexivity; lia.
Qed.

Lemma str_width_classes e s : fold_right (fun k a => class_width e k + a) 0 (map u8w s) = str_width e s.
Proof.
  induction s as [|c s IH]; [reflexivity|]. cbn [map fold_right str_width]. rewrite IH, class_width_cclass. reflexivity.
Qed.

Lemma last_map_some {A B} (g : A -> B) r :
  last (map Some (map g r)) None = option_map g (last (map Some r) None).
Proof. induction r as [|a [|b u] IH]; [reflexivity|reflexivity|exact IH]. Qed.

Lemma rs_width_rshape e ids r : rs_width e (rshape ids r) = elem_w e OText r.
Proof.
  unfold rs_width, elem_w, elem_text, winner, rshape. rewrite last_map_some.
  destruct (last (map Some r) None) as [[id v]|]; cbn [option_map].
  - destruct v as [s|z|t]; unfold vshape; cbn [snd fst].
    + destruct s; try (destruct e; reflexivity). cbn [sshape]. apply str_width_classes.
    + destruct e; reflexivity.
    + destruct t; destruct e; reflexivity.
  - destruct e; reflexivity.
Qed.

Lemma length_isort {A} (cmp : A -> A -> comparison) l : length (isort cmp l) = length l.
Proof. symmetry. apply Permutation_length, isort_perm. Qed.

Lemma obj_width_shape e ids l id t :
  sh_width e (oshape ids (observe_obj l id t)) = obj_width e (observe_obj l id t).
Proof.
  unfold observe_obj, sh_width, obj_width, oshape.
  destruct t; cbn [is_seq_type oo_type oo_entries fst snd]; try reflexivity.
  - rewrite map_length. reflexivity.
  - induction (flat_map _ (elem_order l)) as [|r u IH]; [reflexivity|].
    cbn [map fold_right]. rewrite IH, rs_width_rshape. reflexivity.
Qed.

Lemma obj_len_shape ids o : sh_len (oshape ids o) = obj_len o.
Proof.
  unfold sh_len, obj_len, oshape. cbn [snd]. destruct (oo_entries o).
  - rewrite length_isort, map_length. reflexivity.
  - rewrite map_length. reflexivity.
Qed.

Theorem shape_widths e ops :
  map (obj_width e) (observe ops) = map (sh_width e) (shape (observe ops)).
Proof.
  unfold shape. generalize (map oo_id (observe ops)) as ids. intros ids.
  unfold observe, observe_sorted. rewrite !map_map. apply map_ext. intros ot. symmetry. apply obj_width_shape.
Qed.

Theorem shape_lens ops : map obj_len (observe ops) = map sh_len (shape (observe ops)).
Proof. unfold shape. rewrite map_map. apply map_ext. intros o. symmetry. apply obj_len_shape. Qed.

Theorem shape_types ops : map oo_type (observe ops) = map fst (shape (observe ops)).
Proof. unfold shape. rewrite map_map. apply map_ext. intros o. reflexivity. Qed.

Lemma wf_ids_b_sound ops : wf_ids_b ops = true -> wf_ids ops.
Proof.
  unfold wf_ids_b, wf_ids. rewrite andb_true_iff, !forallb_forall. intros [H1 H2]. split.
  - intros x Hx. specialize (H1 x Hx). apply orb_true_iff in H1. destruct H1 as [H1|H1].
    + left. apply opid_eqb_spec, H1.
    + right. lia.
  - intros o Ho. specialize (H2 o Ho). lia.
Qed.

Lemma nonroot x : 1 <= fst x -> opid_eqb x root_id = false.
Proof. intros H. apply opid_eqb_false. intros ->. cbn in H. lia. Qed.

Lemma rn_id_nonroot R x : 1 <= fst x -> rn_id R x = (fst x, r_actor R (snd x)).
Proof. intros H. unfold rn_id. rewrite (nonroot x H). reflexivity. Qed.

Lemma in_id_actors ops x : In x (ids_of ops) -> 1 <= fst x -> In (snd x) (id_actors ops).
Proof.
  intros Hx W. unfold id_actors. apply in_map, filter_In. split; [exact Hx|]. rewrite (nonroot x W). reflexivity.
Qed.

Lemma mono_of_actors R ops :
  wf_ids ops ->
  (forall a b, In a (id_actors ops) -> In b (id_actors ops) ->
     bytes_cmp (r_actor R a) (r_actor R b) = bytes_cmp a b) ->
  forall x y, In x (ids_of ops) -> In y (ids_of ops) -> opid_cmp (rn_id R x) (rn_id R y) = opid_cmp x y.
Proof.
  intros [W _] Hact x y Hx Hy.
  assert (F : forall z, fst (rn_id R z) = fst z)
    by (intros z; unfold rn_id; destruct (opid_eqb z root_id) eqn:E; [apply opid_eqb_spec in E; subst z|]; reflexivity).
  unfold opid_cmp. rewrite !F. destruct (N.compare_spec (fst x) (fst y)) as [E|_|_]; try reflexivity.
  (* equal counters: both are the root, or neither is *)
  destruct (W x Hx) as [->|Wx], (W y Hy) as [->|Wy]; [reflexivity|cbn in E; lia|cbn in E; lia|].
  rewrite (rn_id_nonroot R x Wx), (rn_id_nonroot R y Wy). apply Hact; apply in_id_actors; assumption.
Qed.

Record good_hist (R : renaming) (appl : list change) (hs : list N) : Prop := {
  h_wf : wf_ids (all_ops appl);
  h_act : forall a b, In a (hist_actors appl) -> In b (hist_actors appl) ->
          bytes_cmp (r_actor R a) (r_actor R b) = bytes_cmp a b;
  h_hash : forall x y, In x (hist_hashes appl hs) -> In y (hist_hashes appl hs) -> r_hash R x = r_hash R y -> x = y;
  h_kinj : forall k1 k2, In k1 (map_keys (all_ops appl)) -> In k2 (map_keys (all_ops appl)) ->
           r_key R k1 = r_key R k2 -> k1 = k2;
  h_kshape : forall k, In k (map_keys (all_ops appl)) -> map u8w (r_key R k) = map u8w k;
  h_val : forall o v, In o (all_ops appl) -> op_action o = APut v -> sshape (r_val R (op_id o) v) = sshape v }.

Lemma hist_hash_dom appl hs c : In c appl ->
  In (ch_hash c) (hist_hashes appl hs) /\ incl (ch_deps c) (hist_hashes appl hs).
Proof.
  intros Hc. unfold hist_hashes. split.
  - apply in_or_app. right. apply in_or_app. left. unfold hashes. apply in_map, Hc.
  - intros d Hd. apply in_or_app. right. apply in_or_app. right. apply in_flat_map. exists c. split; assumption.
Qed.

Section Clock.
  Variable R : renaming.
  Notation fa := (r_actor R).
  Variable AD : actor -> Prop.
  Hypothesis Hact : forall a b, AD a -> AD b -> bytes_cmp (fa a) (fa b) = bytes_cmp a b.

  Lemma same_actor_rn a b : AD a -> AD b -> same_actor (fa a) (fa b) = same_actor a b.
  Proof.
    intros Ha Hb. apply eq_true_iff_eq. rewrite !bytes_eqb_spec. split; [|intros ->; reflexivity].
    intros E. apply (cmp_eq bytes_cmp_total). rewrite <- (Hact a b Ha Hb), E. apply cmp_refl, bytes_cmp_total.
  Qed.

  Lemma clock_get_rn k a : (forall b, In b (map fst k) -> AD b) -> AD a ->
    clock_get (rn_clock R k) (fa a) = clock_get k a.
  Proof.
    induction k as [|[b n] t IH]; cbn [rn_clock map clock_get fst snd]; intros Hk Ha; [reflexivity|].
    rewrite same_actor_rn by (first [exact Ha|apply Hk; left; reflexivity]).
    destruct (same_actor a b); [reflexivity|]. apply IH; [|exact Ha]. intros c Hc. apply Hk. right. exact Hc.
  Qed.

  Lemma clock_set_rn k a n : (forall b, In b (map fst k) -> AD b) -> AD a ->
    clock_set (rn_clock R k) (fa a) n = rn_clock R (clock_set k a n).
  Proof.
    induction k as [|[b m] t IH]; cbn [rn_clock map clock_set fst snd]; intros Hk Ha; [reflexivity|].
    rewrite same_actor_rn by (first [exact Ha|apply Hk; left; reflexivity]).
    destruct (same_actor a b); cbn [map fst snd]; [reflexivity|].
    f_equal. apply IH; [|exact Ha]. intros c Hc. apply Hk. right. exact Hc.
  Qed.

  Lemma in_clock_set k a n b : In b (map fst (clock_set k a n)) -> b = a \/ In b (map fst k).
  Proof.
    induction k as [|[c m] t IH]; cbn [clock_set map fst In]; [intuition|].
    destruct (same_actor a c); cbn [map fst In]; intuition.
  Qed.

  Lemma max_op_rn c : max_op (rn_change R c) = max_op c.
  Proof. unfold max_op. cbn [rn_change ch_start ch_ops]. rewrite map_length. reflexivity. Qed.

  Lemma clock_of_rn cs : (forall c, In c cs -> AD (ch_actor c)) ->
    clock_of (map (rn_change R) cs) = rn_clock R (clock_of cs) /\ (forall b, In b (map fst (clock_of cs)) -> AD b).
  Proof.
    induction cs as [|c t IH] using rev_ind; intros Hcs; [split; [reflexivity|intros b []]|].
    destruct IH as [E Hk]; [intros x Hx; apply Hcs, in_or_app; left; exact Hx|].
    assert (Hc : AD (ch_actor c)) by (apply Hcs, in_or_app; right; left; reflexivity).
    rewrite map_app. cbn [map]. rewrite !clock_of_snoc, E, max_op_rn. split.
    - apply clock_set_rn; assumption.
    - intros b Hb. apply in_clock_set in Hb. destruct Hb as [->|Hb]; [exact Hc|apply Hk, Hb].
  Qed.
End Clock.

Section Hist.
  Variable R : renaming.
  Variable appl : list change.
  Variable hs : list N.
  Hypothesis H : good_hist R appl hs.
  Notation fa := (r_actor R).
  Notation fh := (r_hash R).
  Notation rc := (rn_change R).

  Lemma good_hist_on : good_on R (all_ops appl).
  Proof.
    split; [|apply (h_kinj _ _ _ H)|apply (h_kshape _ _ _ H)|apply (h_val _ _ _ H)].
    apply mono_of_actors; [apply (h_wf _ _ _ H)|].
    intros a b Ha Hb. apply (h_act _ _ _ H); unfold hist_actors; apply in_or_app; right; assumption.
  Qed.

  Lemma hash_eqb_rn x y : In x (hist_hashes appl hs) -> In y (hist_hashes appl hs) ->
    N.eqb (fh x) (fh y) = N.eqb x y.
  Proof.
    intros Hx Hy. apply eq_true_iff_eq. rewrite !N.eqb_eq. split; [apply (h_hash _ _ _ H); assumption|intros ->; reflexivity].
  Qed.

  Lemma all_ops_rn cs : all_ops (map rc cs) = map (rn_op R) (all_ops cs).
  Proof.
    unfold all_ops. rewrite flat_map_map', map_flat_map'. apply flat_map_ext_in. intros c _. reflexivity.
  Qed.

  Lemma hashes_rn cs : hashes (map rc cs) = map fh (hashes cs).
  Proof. unfold hashes. rewrite !map_map. reflexivity. Qed.

  Lemma anc_rev_rn l : forall want, incl l appl -> incl want (hist_hashes appl hs) ->
    anc_rev (map rc l) (map fh want) = map rc (anc_rev l want).
  Proof.
    induction l as [|c t IH]; intros want Hl Hw; [reflexivity|].
    cbn [map anc_rev]. cbn [rn_change ch_hash ch_deps].
    apply incl_cons_inv in Hl. destruct Hl as [Hc Ht].
    destruct (hist_hash_dom appl hs c Hc) as [Hh Hd].
    rewrite (memb_map_in N.eqb N.eqb fh (ch_hash c) want)
      by (intros y Hy; apply hash_eqb_rn; [exact Hh|apply Hw, Hy]).
    destruct (memb N.eqb (ch_hash c) want).
    - cbn [map]. f_equal. rewrite <- map_app. apply IH; [exact Ht|]. apply incl_app; assumption.
    - apply IH; assumption.
  Qed.

  Theorem ancestors_rename : ancestors (rename R appl) (map fh hs) = rename R (ancestors appl hs).
  Proof.
    unfold ancestors, rename. rewrite <- map_rev, anc_rev_rn, map_rev; [reflexivity| |].
    - intros c Hc. apply in_rev, Hc.
    - intros h Hh. apply in_or_app. left. exact Hh.
  Qed.

  Theorem heads_rename : heads_of (rename R appl) = sortN (map fh (heads_of appl)).
  Proof.
    unfold rename, heads_of. rewrite hashes_rn.
    rewrite (filter_map_in (fun h => negb (existsb (fun c => memb N.eqb h (ch_deps c)) appl))
                           (fun h => negb (existsb (fun c => memb N.eqb h (ch_deps c)) (map rc appl))) fh (hashes appl)).
    - unfold sortN. apply (isort_perm_eq N.compare N_cmp_total). apply Permutation_map, isort_perm.
    - intros h Hh. f_equal. apply existsb_map_in. intros c Hc.
      cbn [rn_change ch_deps]. apply memb_map_in. intros d Hd. apply hash_eqb_rn.
      + apply in_or_app. right. apply in_or_app. left. exact Hh.
      + apply (hist_hash_dom appl hs c Hc), Hd.
  Qed.

  Theorem shape_obs_at_rn : shape (obs_at (rename R appl) (map fh hs)) = shape (obs_at appl hs).
  Proof.
    unfold obs_at. rewrite ancestors_rename. unfold rename.
    set (AD := fun a => In a (hist_actors appl)).
    assert (Hanc : forall c, In c (ancestors appl hs) -> AD (ch_actor c))
      by (intros c Hc; apply in_or_app; left; apply in_map, (ancestors_incl appl hs c Hc)).
    destruct (clock_of_rn R AD (h_act _ _ _ H) (ancestors appl hs) Hanc) as [Ek Hk].
    rewrite Ek, all_ops_rn.
    rewrite (filter_map_in (fun o => covered (clock_of (ancestors appl hs)) (op_id o))
                           (fun o => covered (rn_clock R (clock_of (ancestors appl hs))) (op_id o))
                           (rn_op R) (all_ops appl)).
    - apply (shape_observe_rn R (all_ops appl) good_hist_on), incl_filter.
    - intros o Ho. cbn [rn_op op_id]. destruct (h_wf _ _ _ H) as [_ W].
      rewrite (rn_id_nonroot R (op_id o) (W o Ho)). unfold covered. cbn [fst snd].
      rewrite (clock_get_rn R AD (h_act _ _ _ H)); [reflexivity|exact Hk|].
      apply in_or_app. right. apply in_id_actors; [apply in_ids_id, Ho|exact (W o Ho)].
  Qed.
End Hist.
