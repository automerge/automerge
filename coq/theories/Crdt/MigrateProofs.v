(* Crdt/MigrateProofs.v — string migration (C40), on top of Crdt/LocalProofs.v.  One conversion is the
   abstract step [retexted] ([convert_one_spec]); the loop invariant [minv ops0 t f] records in [f] which
   registers have been given a text object so far and with which string, and [minv_step] carries it over
   a conversion.  The conversions are regrouped by register ([blocks], [conversions_blocks]) so that the
   final [f] is the last string of each listed register ([blocks_fold], [final_listed]). *)
From AM Require Import Base.Prelude Base.ListFacts Base.Order Crdt.Types Crdt.Interp Crdt.Local Crdt.LocalProofs Crdt.Migrate.
Local Open Scope N_scope.

Lemma reg_at_obj_ops ops ops' obj K : obj_ops ops' obj = obj_ops ops obj -> reg_at ops' obj K = reg_at ops obj K.
Proof. unfold reg_at. intros ->. reflexivity. Qed.

Lemma seq_elems_obj_ops ops ops' obj : obj_ops ops' obj = obj_ops ops obj -> seq_elems ops' obj = seq_elems ops obj.
Proof. unfold seq_elems, reg_at. intros ->. reflexivity. Qed.

Lemma text_at_obj_ops ops ops' obj : obj_ops ops' obj = obj_ops ops obj -> text_at ops' obj = text_at ops obj.
Proof. unfold text_at. intros H. rewrite (seq_elems_obj_ops _ _ _ H). reflexivity. Qed.

(* a run of characters inserted after the last element of a sequence *)
Lemma insert_chain_chars s : forall t obj ref L,
  wf_tx t -> fst obj < next_ctr t -> fst ref < next_ctr t ->
  elem_order (obj_ops (tx_all t) obj) = L -> ends_at ref L ->
  let t' := insert_chain t obj ref (char_acts s) in
  wf_tx t' /\
  text_at (tx_all t') obj = text_at (tx_all t) obj ++ s /\
  (forall obj', obj' <> obj -> obj_ops (tx_all t') obj' = obj_ops (tx_all t) obj') /\
  (forall o, lookup_type (tx_all t') o = lookup_type (tx_all t) o).
Proof.
  induction s as [|c s IH]; intros t obj ref L W Ho Hb EL Hr; cbn [char_acts map insert_chain]; cbv zeta.
  - rewrite app_nil_r. auto.
  - fold (char_acts s). set (n := mkOp (next_id t) obj (KSeq ref) true (APut (SStr [c])) []).
    destruct (seq_elems_insert t obj ref (APut (SStr [c])) L [] W) as (NI & Ord & E);
      [discriminate|rewrite app_nil_r; exact EL|exact Hr|].
    rewrite app_nil_r in NI. rewrite <- tx_all_push in Ord, E. fold n in Ord, E.
    assert (W1 : wf_tx (push t n)) by (apply wf_push; [exact W|reflexivity|exact Ho|exact Hb|intros p []]).
    (* the new character is the last element, so the rest of the run goes after it *)
    destruct (IH (push t n) obj (next_id t) (L ++ [next_id t]) W1) as (W2 & T2 & O2 & L2);
      [rewrite next_ctr_push; lia|rewrite next_ctr_push; apply N.lt_add_pos_r, N.lt_0_1|exact Ord|right; exists L; auto|].
    cbv zeta in W2, T2, O2, L2. split; [exact W2|]. split; [|split].
    + rewrite T2. unfold text_at. rewrite E, seq_elems_gel, EL, flat_map_app, <- app_assoc. reflexivity.
    + intros obj' NE. rewrite O2, tx_all_push by exact NE. apply obj_ops_snoc_other, NE.
    + intros o. rewrite L2, tx_all_push, lookup_type_snoc_eq. destruct (lookup_type (tx_all t) o); [reflexivity|].
      destruct (opid_eqb _ o); reflexivity.
Qed.

Lemma seek_unit_some w els : (forall r, w r = 1) ->
  forall k idx acc p0 e r, nth_error els k = Some (e, r) -> idx = acc + N.of_nat k ->
  exists s wd p, seek w els idx acc p0 = Some (e, r, s, wd, p).
Proof.
  intros Hw. induction els as [|[e' r'] t IH]; intros k idx acc p0 e r Hn Hi; [destruct k; discriminate|].
  cbn [seek]. rewrite Hw. destruct k as [|k].
  - cbn in Hn. inversion Hn; subst. replace (acc + N.of_nat 0 <? acc + 1) with true by (symmetry; apply N.ltb_lt; lia).
    eexists _, _, _. reflexivity.
  - cbn in Hn. replace (idx <? acc + 1) with false by (symmetry; apply N.ltb_ge; lia).
    apply (IH k idx (acc + 1) (S p0) e r Hn). lia.
Qed.

(* splice_text(text, 0, 0, s) on a text object that has no element yet *)
Lemma splice_text_fresh e t id s :
  wf_tx t -> lookup_type (tx_all t) id = Some OText -> obj_ops (tx_all t) id = [] ->
  exists t', step e t (CSpliceText id 0 0 s) = EOk t' /\ wf_tx t' /\ Ext t t' /\
    text_at (tx_all t') id = s /\
    (forall obj', obj' <> id -> obj_ops (tx_all t') obj' = obj_ops (tx_all t) obj') /\
    (forall o, lookup_type (tx_all t') o = lookup_type (tx_all t) o).
Proof.
  intros W L E. exists (insert_chain t id head_id (char_acts s)). split.
  { unfold step, with_obj. rewrite L. unfold inner_splice.
    change (0 <? 0)%Z with false. cbv iota. change (Z.to_N 0) with 0.
    assert (D : forall t1 i, del_loop (2 * length (seq_elems (tx_all t1) id) + 2) e t1 id OText i 0 0 = EOk t1).
    { intros t1 i. rewrite Nat.add_comm. cbn [Nat.add del_loop]. rewrite N.ltb_irrefl. reflexivity. }
    destruct s as [|c s].
    - cbn [char_acts map insert_chain]. apply D.
    - cbn [char_acts map]. unfold query_insert. rewrite N.eqb_refl. apply D. }
  pose proof (lookup_type_ctr_below _ _ _ W L) as B.
  destruct (insert_chain_chars s t id head_id [] W B (N.le_lt_trans _ _ _ (N.le_0_l _) B)) as (W2 & T2 & O2 & L2);
    [rewrite E; reflexivity|left; split; reflexivity|].
  cbv zeta in W2, T2, O2, L2. split; [exact W2|]. split; [apply Ext_insert_chain|]. split; [|split; assumption].
  rewrite T2. unfold text_at, seq_elems. rewrite E. reflexivity.
Qed.

(* the target register of a conversion: a map key, or the element a list index stands for *)
Definition conv_target (ops : list op) (obj : opid) (p : prop) (ty : objtype) (K : key) : Prop :=
  match p with
  | PMap k => ty = OMap /\ K = KMap k
  | PSeq i => ty = OList /\ exists el r, K = KSeq el /\ nth_error (seq_elems ops obj) (N.to_nat i) = Some (el, r)
  end.

Lemma local_op_target e t obj p ty K a :
  wf_tx t -> conv_target (tx_all t) obj p ty K ->
  local_op e t obj ty p a = update_op t obj K (reg_at (tx_all t) obj K) a /\ key_ctr K < next_ctr t.
Proof.
  intros W T. destruct p as [k|i]; cbn [conv_target] in T.
  - destruct T as [-> ->]. split; [reflexivity|]. cbn. unfold next_ctr. destruct (wf_tx_parts t W) as (_ & _ & St). lia.
  - destruct T as (-> & el & r & -> & Hn). cbn [local_op]. unfold local_list_op. cbn [is_seq_type negb].
    destruct (seek_unit_some (elem_w e OList) (seq_elems (tx_all t) obj) (fun _ => eq_refl)
                (N.to_nat i) i 0 0%nat el r Hn) as (s0 & wd & pp & ->); [lia|].
    destruct (seq_elems_reg _ _ _ _ (nth_error_In _ _ Hn)) as (-> & _ & Hin).
    split; [reflexivity|]. apply (elem_order_below t obj el W Hin).
Qed.

(* the register [K] of [obj] now shows a text object made by this step, whose characters are [s]; no other
   register, no element order and no other object has moved *)
Record retexted (t t' : tx) (obj : opid) (K : key) (s : list N) : Prop := {
  rt_wf : wf_tx t';
  rt_type : forall o, lookup_type (tx_all t') o = if opid_eqb (next_id t) o then Some OText else lookup_type (tx_all t) o;
  rt_reg : reg_at (tx_all t') obj K = [(next_id t, VO OText)];
  rt_text : text_at (tx_all t') (next_id t) = s;
  rt_keys : forall K', K' <> K -> reg_at (tx_all t') obj K' = reg_at (tx_all t) obj K';
  rt_objs : forall o, o <> obj -> o <> next_id t -> obj_ops (tx_all t') o = obj_ops (tx_all t) o;
  rt_order : forall o, o <> next_id t -> elem_order (obj_ops (tx_all t') o) = elem_order (obj_ops (tx_all t) o) }.

Theorem convert_one_spec e t obj p s ty K :
  wf_tx t -> lookup_type (tx_all t) obj = Some ty -> conv_target (tx_all t) obj p ty K ->
  exists t', convert_one e t (obj, p, s) = EOk t' /\ Ext t t' /\ retexted t t' obj K s.
Proof.
  intros W L T.
  destruct (make_op_spec t obj ty K OText W L) as (U & PB & L1 & E1).
  destruct (local_op_target e t obj p ty K (AMake OText) W T) as [P KB]. rewrite U in P.
  set (id := next_id t) in *. set (r := reg_at (tx_all t) obj K) in *.
  set (n := mkOp id obj K false (AMake OText) (map fst r)) in *.
  destruct (update_op_spec t obj K (AMake OText) _ _ W U) as [Fr Rg].
  rewrite resolved_no_put in Rg by discriminate.
  rewrite <- tx_all_push in L1, E1. set (t1 := push t n) in *.
  assert (W1 : wf_tx t1)
    by (apply wf_push; [exact W|reflexivity|exact (lookup_type_ctr_below _ _ _ W L)|exact KB|exact PB]).
  destruct (splice_text_fresh e t1 id s W1 L1 E1) as (t2 & S2 & W2 & X2 & T2 & O2 & L2).
  assert (OO : obj_ops (tx_all t2) obj = obj_ops (tx_all t1) obj) by (apply O2, (lookup_type_below _ _ _ W L)).
  exists t2. split; [|split; [exact (Ext_trans _ t1 _ (Ext_push t n eq_refl) X2)|split]].
  - unfold convert_one, with_obj. rewrite L.
    assert (G : ebind (local_op e t obj ty p (AMake OText))
                  (fun r => match snd r with Some id => step e (fst r) (CSpliceText id 0 0 s) | None => EPanic end) = EOk t2)
      by (rewrite P; exact S2).
    destruct p as [k|i]; destruct T as [-> _]; exact G.
  - exact W2.
  - intros o. rewrite L2. unfold t1. rewrite tx_all_push. apply (lookup_type_push t n o W eq_refl).
  - rewrite (reg_at_obj_ops _ _ _ _ OO). exact Rg.
  - exact T2.
  - intros K' NK. rewrite (reg_at_obj_ops _ _ _ _ OO). apply (fu_keys _ _ _ _ Fr), NK.
  - intros o N1 N2. rewrite O2 by exact N2. apply (fu_obj_ops _ _ _ _ Fr), N1.
  - intros o N2. rewrite O2 by exact N2. apply (fu_order _ _ _ _ Fr).
Qed.

(* the register a conversion of (object, prop) aims at, read in the document the conversions were computed from *)
Definition ckey (ops0 : list op) (op : opid * prop) : key :=
  match op with
  | (_, PMap k) => KMap k
  | (obj, PSeq i) => match nth_error (seq_elems ops0 obj) (N.to_nat i) with
                     | Some er => KSeq (fst er)
                     | None => KMap []
                     end
  end.

Definition cvalid (ops0 : list op) (op : opid * prop) : Prop :=
  exists ty, lookup_type ops0 (fst op) = Some ty /\ conv_target ops0 (fst op) (snd op) ty (ckey ops0 op).

Definition targets (ops0 : list op) (op : opid * prop) (obj : opid) (K : key) : bool :=
  opid_eqb (fst op) obj && key_eqb (ckey ops0 op) K.

(* which string (if any) the last conversion aimed at a register carried *)
Definition tstep (ops0 : list op) (obj : opid) (K : key) (acc : option (list N)) (c : conv) : option (list N) :=
  if targets ops0 (fst c) obj K then Some (snd c) else acc.
Definition last_target (ops0 : list op) (cs : list conv) (acc : opid -> key -> option (list N)) (obj : opid) (K : key) :=
  fold_left (tstep ops0 obj K) cs (acc obj K).

(* a register that shows one text object, made by the migration, whose characters are [s] *)
Definition shows_text (ops0 ops : list op) (obj : opid) (K : key) (s : list N) : Prop :=
  exists id, reg_at ops obj K = [(id, VO OText)] /\ lookup_type ops0 id = None /\
             lookup_type ops id = Some OText /\ text_at ops id = s.

Record minv (ops0 : list op) (t : tx) (f : opid -> key -> option (list N)) : Prop := {
  mi_wf : wf_tx t;
  mi_type : forall obj ty, lookup_type ops0 obj = Some ty -> lookup_type (tx_all t) obj = Some ty;
  mi_new : forall o ty, lookup_type (tx_all t) o = Some ty -> lookup_type ops0 o = Some ty \/ ty = OText;
  mi_order : forall obj ty, lookup_type ops0 obj = Some ty ->
             elem_order (obj_ops (tx_all t) obj) = elem_order (obj_ops ops0 obj);
  mi_reg : forall obj ty K, lookup_type ops0 obj = Some ty ->
           match f obj K with
           | None => reg_at (tx_all t) obj K = reg_at ops0 obj K
           | Some s => shows_text ops0 (tx_all t) obj K s
           end;
  mi_ne : forall obj el s, f obj (KSeq el) = Some s -> reg_at ops0 obj (KSeq el) <> [] }.

(* the visible elements of an old list are the same elements, in the same order *)
Lemma minv_elems ops0 t f obj ty :
  minv ops0 t f -> lookup_type ops0 obj = Some ty ->
  map fst (seq_elems (tx_all t) obj) = map fst (seq_elems ops0 obj).
Proof.
  intros I L. rewrite !seq_elems_gel, !flat_map_concat_map, !concat_map, !map_map, (mi_order _ _ _ I obj ty L).
  f_equal. apply map_ext_in. intros el _. unfold gel.
  pose proof (mi_reg _ _ _ I obj ty (KSeq el) L) as R.
  destruct (f obj (KSeq el)) as [s|] eqn:E.
  - destruct R as (id & -> & _). pose proof (mi_ne _ _ _ I obj el s E) as NE.
    destruct (reg_at ops0 obj (KSeq el)); [congruence|reflexivity].
  - rewrite R. destruct (reg_at ops0 obj (KSeq el)); reflexivity.
Qed.

Lemma targets_true ops0 op obj K : targets ops0 op obj K = true <-> fst op = obj /\ ckey ops0 op = K.
Proof.
  unfold targets. rewrite andb_true_iff. split.
  - intros [A B]. apply opid_eqb_spec in A. apply key_eqb_true in B. auto.
  - intros [-> <-]. rewrite opid_eqb_refl, key_eqb_refl. auto.
Qed.

(* a conversion aims, in the current document, at the register it aimed at in the original one *)
Lemma minv_target ops0 t f obj p ty K :
  minv ops0 t f -> lookup_type ops0 obj = Some ty -> conv_target ops0 obj p ty K ->
  conv_target (tx_all t) obj p ty K /\ (forall el, K = KSeq el -> reg_at ops0 obj K <> []).
Proof.
  intros I L T. destruct p as [k|i]; cbn [conv_target] in *.
  - split; [exact T|]. destruct T as [_ ->]. discriminate.
  - destruct T as (-> & el & r & -> & Hn). split.
    + split; [reflexivity|].
      assert (Hm : nth_error (map fst (seq_elems (tx_all t) obj)) (N.to_nat i) = Some el)
        by (rewrite (minv_elems _ _ _ _ _ I L), nth_error_map, Hn; reflexivity).
      rewrite nth_error_map in Hm.
      destruct (nth_error (seq_elems (tx_all t) obj) (N.to_nat i)) as [[el' r']|]; inversion Hm. eauto.
    + intros _ _. apply nth_error_In in Hn. destruct (seq_elems_reg _ _ _ _ Hn) as (<- & NE & _). exact NE.
Qed.

(* one abstract step of the loop: [hit] decides which register it was *)
Lemma minv_step ops0 t t' f (hit : opid -> key -> bool) obj ty K s :
  minv ops0 t f -> retexted t t' obj K s ->
  lookup_type ops0 obj = Some ty -> (forall el, K = KSeq el -> reg_at ops0 obj K <> []) ->
  (forall o K', hit o K' = true <-> obj = o /\ K = K') ->
  minv ops0 t' (fun o K' => if hit o K' then Some s else f o K').
Proof.
  intros I [W' Lo Rg Tx Fk Fo Fe] L0 NE Hit. set (id := next_id t) in *.
  pose proof (lookup_type_next_none t (mi_wf _ _ _ I)) as Ln. fold id in Ln.
  assert (Old : forall o ty', lookup_type ops0 o = Some ty' -> id <> o).
  { intros o ty' Lo' <-. rewrite (mi_type _ _ _ I _ _ Lo') in Ln. discriminate. }
  split.
  - exact W'.
  - intros o ty' Lo'. rewrite Lo, opid_eqb_false by (eapply Old; eauto). eapply mi_type; eauto.
  - intros o ty' Lo'. rewrite Lo in Lo'. destruct (opid_eqb id o); [inversion Lo'; right; reflexivity|].
    eapply mi_new; eauto.
  - intros o ty' Lo'. rewrite Fe by (apply not_eq_sym; eapply Old; eauto). eapply mi_order; eauto.
  - intros o ty' K' Lo'. destruct (hit o K') eqn:H.
    + apply Hit in H. destruct H as [<- <-].
      exists id. rewrite Lo, opid_eqb_refl. split; [exact Rg|]. split; [|split; [reflexivity|exact Tx]].
      destruct (lookup_type ops0 id) as [tyi|] eqn:Q; [|reflexivity].
      destruct (Old _ _ Q eq_refl).
    + assert (Same : reg_at (tx_all t') o K' = reg_at (tx_all t) o K').
      { destruct (opid_eqb obj o) eqn:Eo.
        - apply opid_eqb_spec in Eo. subst o. apply Fk. intros ->.
          rewrite (proj2 (Hit obj K)) in H by auto. discriminate.
        - apply reg_at_obj_ops, Fo.
          + intros ->. rewrite opid_eqb_refl in Eo. discriminate.
          + apply not_eq_sym. eapply Old; eauto. }
      pose proof (mi_reg _ _ _ I o ty' K' Lo') as R.
      destruct (f o K') as [s0|]; [|rewrite Same; exact R].
      (* a text the migration made earlier is neither the new one nor the object written to *)
      destruct R as (id0 & R0 & N0 & T0 & X0).
      assert (N1 : id0 <> id) by (intros ->; rewrite T0 in Ln; discriminate).
      assert (N2 : id0 <> obj) by (intros ->; rewrite N0 in L0; discriminate).
      exists id0. rewrite Same, Lo, opid_eqb_false, (text_at_obj_ops _ _ _ (Fo id0 N2 N1)) by auto. auto.
  - intros o el s0. destruct (hit o (KSeq el)) eqn:H; [|apply (mi_ne _ _ _ I)].
    intros _. apply Hit in H. destruct H as [<- Q]. rewrite <- Q. exact (NE el Q).
Qed.

Theorem convert_step ops0 e t f c :
  minv ops0 t f -> cvalid ops0 (fst c) ->
  exists t', convert_one e t c = EOk t' /\ Ext t t' /\
    minv ops0 t' (fun obj K => tstep ops0 obj K (f obj K) c).
Proof.
  intros I (ty & L0 & T0). destruct c as [[obj p] s].
  destruct (minv_target _ _ _ _ _ _ _ I L0 T0) as [T NE].
  destruct (convert_one_spec e t obj p s ty _ (mi_wf _ _ _ I) (mi_type _ _ _ I obj ty L0) T) as (t' & C & X & R).
  exists t'. split; [exact C|]. split; [exact X|].
  exact (minv_step _ _ _ _ _ _ _ _ _ I R L0 NE (targets_true ops0 (obj, p))).
Qed.

Theorem convert_all_spec ops0 e cs : forall t f,
  minv ops0 t f -> Forall (fun c => cvalid ops0 (fst c)) cs ->
  exists t', convert_all e t cs = EOk t' /\ Ext t t' /\ minv ops0 t' (last_target ops0 cs f).
Proof.
  induction cs as [|c cs IH]; intros t f I V.
  - exists t. cbn [convert_all]. split; [reflexivity|]. split; [apply Ext_refl|exact I].
  - inversion V as [|? ? Vc Vr]; subst.
    destruct (convert_step ops0 e t f c I Vc) as (t1 & C1 & X1 & I1).
    destruct (IH t1 _ I1 Vr) as (t2 & C2 & X2 & I2).
    exists t2. cbn [convert_all]. rewrite C1. cbn [ebind]. split; [exact C2|].
    split; [exact (Ext_trans _ _ _ X1 X2)|exact I2].
Qed.

Lemma last_str_from_spec r : forall acc,
  last_str_from r acc = match last_str r with Some s => Some s | None => acc end.
Proof.
  unfold last_str, last_str_from. induction r as [|iw r IH]; intros acc; [reflexivity|].
  cbn [fold_left]. rewrite (IH (match snd iw with VS (SStr s) => Some s | _ => acc end)).
  rewrite (IH (match snd iw with VS (SStr s) => Some s | _ => None end)).
  destruct (fold_left _ r None); [reflexivity|].
  destruct (snd iw) as [[]| |]; reflexivity.
Qed.

Definition no_str (r : regobs) : Prop := forall i s, ~ In (i, VS (SStr s)) r.

Lemma last_str_none r : last_str r = None <-> no_str r.
Proof.
  induction r as [|[i w] r IH].
  - split; [intros _ j s []|reflexivity].
  - unfold last_str, last_str_from. cbn [fold_left snd]. fold (last_str_from r (match w with VS (SStr s) => Some s | _ => None end)).
    rewrite last_str_from_spec. split.
    + intros H j s [Q|Hin].
      * inversion Q; subst. destruct (last_str r); discriminate.
      * destruct (last_str r) eqn:E; [discriminate|]. apply (proj1 IH eq_refl j s Hin).
    + intros H. assert (E : last_str r = None) by (apply IH; intros j s Hin; apply (H j s); right; exact Hin).
      rewrite E. destruct w as [[]| |]; try reflexivity. exfalso. apply (H i s). left. reflexivity.
Qed.

Lemma str_convs_nil o p r : no_str r -> str_convs o p r = [].
Proof.
  intros H. apply flat_map_nil. intros [i w] Hin. destruct w as [[]| |]; try reflexivity. destruct (H i s Hin).
Qed.

Fixpoint index_from {A} (i : N) (l : list A) : list (N * A) :=
  match l with
  | [] => []
  | x :: t => (i, x) :: index_from (i + 1) t
  end.

Lemma index_from_in {A} (l : list A) : forall i j x,
  In (j, x) (index_from i l) <-> exists k, j = i + N.of_nat k /\ nth_error l k = Some x.
Proof.
  induction l as [|a t IH]; intros i j x; cbn [index_from In].
  - split; [intros []|intros ([|k] & _ & Q); discriminate].
  - rewrite IH. split.
    + intros [Q|(k & -> & Hn)].
      * inversion Q; subst. exists 0%nat. split; [lia|reflexivity].
      * exists (S k). split; [lia|exact Hn].
    + intros ([|k] & -> & Hn).
      * left. inversion Hn. f_equal. lia.
      * right. exists k. split; [lia|exact Hn].
Qed.

Lemma index_in {A} (l : list A) j x : In (j, x) (index_from 0 l) <-> nth_error l (N.to_nat j) = Some x.
Proof.
  rewrite index_from_in. split.
  - intros (k & -> & Hn). rewrite N.add_0_l, Nat2N.id. exact Hn.
  - intros Hn. exists (N.to_nat j). split; [lia|exact Hn].
Qed.

(* the conversions of a list: those of each element's register, under the element's index *)
Lemma list_convs_indexed o els : forall i,
  list_convs o els i = flat_map (fun jx => str_convs o (PSeq (fst jx)) (snd (snd jx))) (index_from i els).
Proof.
  induction els as [|er els IH]; intros i; cbn [list_convs index_from flat_map fst snd]; [|rewrite IH]; reflexivity.
Qed.

Definition container (ty : objtype) : Prop := ty = OMap \/ ty = OList.

(* the registers a reader can address: every key of a map, every visible element of a list *)
Definition listed (ops : list op) (obj : opid) (ty : objtype) (K : key) (r : regobs) : Prop :=
  (ty = OMap /\ exists k, K = KMap k /\ r = reg_at ops obj K) \/
  (ty = OList /\ exists el, K = KSeq el /\ In (el, r) (seq_elems ops obj)).

Lemma listed_reg ops obj ty K r : listed ops obj ty K r -> r = reg_at ops obj K.
Proof.
  intros [(_ & k & _ & E)|(_ & el & -> & Hin)]; [exact E|]. apply (seq_elems_reg _ _ _ _ Hin).
Qed.

Lemma objects_nodup ops :
  ssorted ops -> (forall o, In o ops -> 0 < fst (op_id o)) -> NoDup (map fst (objects ops)).
Proof.
  intros S Pos.
  replace (map fst (objects ops))
    with (root_id :: map op_id (filter (fun o => match make_type o with Some _ => true | None => false end) ops)).
  - constructor; [|apply NoDup_map_filter, ssorted_nodup, S].
    intros H. apply in_map_iff in H. destruct H as (o & E & Ho). apply filter_In in Ho.
    specialize (Pos o (proj1 Ho)). rewrite E in Pos. exact (N.lt_irrefl _ Pos).
  - clear. unfold objects. cbn [map]. f_equal. induction ops as [|o l IH]; [reflexivity|].
    cbn [flat_map filter]. rewrite map_app, <- IH. destruct (make_type o); reflexivity.
Qed.

Lemma find_nodup_fst (l : list (opid * objtype)) a b :
  NoDup (map fst l) -> In (a, b) l -> find (fun ot => opid_eqb (fst ot) a) l = Some (a, b).
Proof.
  induction l as [|[x y] l IH]; intros ND Hin; [destruct Hin|]. cbn [find fst]. cbn [map fst] in ND.
  inversion ND as [|? ? Nin ND']; subst. destruct Hin as [Q|Hin].
  - inversion Q; subst. rewrite opid_eqb_refl. reflexivity.
  - rewrite opid_eqb_false; [apply IH; assumption|]. intros ->. apply Nin. apply in_map_iff. exists (a, b). auto.
Qed.

Lemma objects_lookup t obj ty :
  wf_tx t -> In (obj, ty) (objects (tx_all t)) <-> lookup_type (tx_all t) obj = Some ty.
Proof.
  intros W. unfold lookup_type. split.
  - intros Hin. rewrite (find_nodup_fst _ obj ty); [reflexivity| |exact Hin].
    apply objects_nodup; [apply (wf_tx_parts t W)|]. intros o Ho. exact (wf_tx_ids_pos t o W Ho).
  - destruct (find _ _) as [[o ty']|] eqn:E; [|discriminate]. intros Q. inversion Q; subst.
    apply find_some in E. destruct E as [Hin Eq]. apply opid_eqb_spec in Eq. cbn in Eq. subst. exact Hin.
Qed.

Lemma str_convs_in o p r c : In c (str_convs o p r) -> fst c = (o, p).
Proof.
  unfold str_convs. intros H. apply in_flat_map in H. destruct H as ([i w] & _ & H). cbn [snd] in H.
  destruct w as [[]| |]; try (destruct H; fail). destruct H as [<-|[]]. reflexivity.
Qed.

(* one block per addressable register, in the order of the enumeration: object, prop, register *)
Definition block := (opid * prop * regobs)%type.
Definition bconvs (b : block) : list conv := str_convs (fst (fst b)) (snd (fst b)) (snd b).
Definition obj_blocks (ops : list op) (ot : opid * objtype) : list block :=
  match snd ot with
  | OMap => map (fun k => (fst ot, PMap k, reg_at ops (fst ot) (KMap k)))
                (dedup_sorted (isort bytes_cmp (map_keys (obj_ops ops (fst ot)))))
  | OList => map (fun jx => (fst ot, PSeq (fst jx), snd (snd jx))) (index_from 0 (seq_elems ops (fst ot)))
  | _ => []
  end.
Definition blocks (ops : list op) : list block := flat_map (obj_blocks ops) (objects ops).

Lemma conversions_blocks ops : conversions ops = flat_map bconvs (blocks ops).
Proof.
  unfold conversions, blocks. induction (objects ops) as [|ot l IH]; [reflexivity|].
  cbn [flat_map]. rewrite flat_map_app, <- IH. f_equal.
  unfold obj_convs, obj_blocks. destruct (snd ot); try reflexivity.
  - unfold map_convs. rewrite !flat_map_concat_map, map_map. reflexivity.
  - rewrite list_convs_indexed, !flat_map_concat_map, map_map. reflexivity.
Qed.

(* a block belongs to a map or a list the document knows, and carries the register its prop addresses *)
Lemma blocks_spec t op r :
  wf_tx t -> In (op, r) (blocks (tx_all t)) ->
  exists ty, lookup_type (tx_all t) (fst op) = Some ty /\
             conv_target (tx_all t) (fst op) (snd op) ty (ckey (tx_all t) op) /\ container ty /\
             listed (tx_all t) (fst op) ty (ckey (tx_all t) op) r.
Proof.
  intros W H. apply in_flat_map in H. destruct H as ([o ty] & Ho & H). apply (objects_lookup t o ty W) in Ho.
  unfold obj_blocks in H. cbn [fst snd] in H. destruct ty; try (destruct H; fail); apply in_map_iff in H.
  - destruct H as (k & Q & _). inversion Q; subst. exists OMap. split; [exact Ho|]. split; [split; reflexivity|].
    split; [left; reflexivity|]. left. split; [reflexivity|]. exists k. auto.
  - destruct H as ([j [el r']] & Q & Hj). inversion Q; subst. apply index_in in Hj. cbn [fst snd ckey]. rewrite Hj.
    exists OList. split; [exact Ho|]. split; [split; [reflexivity|]; exists el, r; auto|]. split; [right; reflexivity|].
    right. split; [reflexivity|]. exists el. split; [reflexivity|exact (nth_error_In _ _ Hj)].
Qed.

(* conversely, a listed register that is not empty has its block *)
Lemma listed_block ops obj ty K r :
  In (obj, ty) (objects ops) -> listed ops obj ty K r -> r <> [] ->
  exists p, In (obj, p, r) (blocks ops) /\ ckey ops (obj, p) = K.
Proof.
  intros Hin Li NE. destruct Li as [(-> & k & -> & Er)|(-> & el & -> & Hel)].
  - subst r. exists (PMap k). split; [|reflexivity]. apply in_flat_map. exists (obj, OMap). split; [exact Hin|].
    apply in_map_iff. exists k. split; [reflexivity|]. apply map_key_listed, NE.
  - destruct (In_nth_error _ _ Hel) as [n Hn]. exists (PSeq (N.of_nat n)). split.
    + apply in_flat_map. exists (obj, OList). split; [exact Hin|].
      apply in_map_iff. exists (N.of_nat n, (el, r)). split; [reflexivity|]. apply index_in. rewrite Nat2N.id. exact Hn.
    + cbn [ckey]. rewrite Nat2N.id, Hn. reflexivity.
Qed.

Lemma conversions_valid t : wf_tx t -> Forall (fun c => cvalid (tx_all t) (fst c)) (conversions (tx_all t)).
Proof.
  intros W. rewrite conversions_blocks. apply Forall_flat_map, Forall_forall. intros [[o p] r] Hb.
  apply Forall_forall. intros c Hc. rewrite (str_convs_in _ _ _ _ Hc).
  destruct (blocks_spec t _ r W Hb) as (ty & L & T & _). exists ty. auto.
Qed.

Section Enum.
  Variable ops0 : list op.
  Variable obj : opid.
  Variable K : key.
  Let g := tstep ops0 obj K.
  Let aims (b : block) := targets ops0 (fst b) obj K.

  (* the conversions of one register *)
  Lemma str_fold b acc : fold_left g (bconvs b) acc = if aims b then last_str_from (snd b) acc else acc.
  Proof.
    destruct b as [[o p] r]. unfold aims, bconvs, str_convs, last_str_from. cbn [fst snd]. revert acc.
    induction r as [|[i w] r IH]; intros acc.
    - cbn [flat_map fold_left]. destruct (targets _ _ _ _); reflexivity.
    - cbn [flat_map snd]. rewrite fold_left_app, IH. cbn [fold_left snd].
      destruct w as [[]| |]; try reflexivity.
      cbn [fold_left]. unfold g, tstep. cbn [fst snd]. destruct (targets ops0 (o, p) obj K); reflexivity.
  Qed.

  (* blocks that aim at the register carry it; after any of them the accumulator is its highest string *)
  Lemma blocks_fold r bs : (forall b, In b bs -> aims b = true -> snd b = r) ->
    forall acc, fold_left g (flat_map bconvs bs) acc = if existsb aims bs then last_str_from r acc else acc.
  Proof.
    induction bs as [|b bs IH]; intros H acc; [reflexivity|].
    cbn [flat_map existsb]. rewrite fold_left_app, str_fold, IH by (intros b' Hb; apply H; right; exact Hb).
    destruct (aims b) eqn:A; [|reflexivity]. rewrite (H b (or_introl eq_refl) A). cbn [orb].
    destruct (existsb aims bs); [|reflexivity]. rewrite !last_str_from_spec. destruct (last_str r); reflexivity.
  Qed.
End Enum.

Definition mig_final (ops0 : list op) : opid -> key -> option (list N) :=
  last_target ops0 (conversions ops0) (fun _ _ => None).

Lemma minv_init t : wf_tx t -> minv (tx_all t) t (fun _ _ => None).
Proof. intros W. split; auto; discriminate. Qed.

Theorem migrate_run e ops a :
  wf_tx (begin_tx ops a) ->
  let ops0 := tx_all (begin_tx ops a) in
  exists t', migrate e ops a = EOk (tx_pending t') /\ tx_all t' = ops0 ++ tx_pending t' /\ minv ops0 t' (mig_final ops0).
Proof.
  intros W ops0. set (t0 := begin_tx ops a) in *.
  destruct (convert_all_spec ops0 e (conversions ops0) t0 (fun _ _ => None) (minv_init t0 W) (conversions_valid t0 W))
    as (t' & C & (B1 & _) & I).
  exists t'. split; [|split; [|exact I]].
  - unfold migrate. fold t0. fold ops0. destruct (conversions ops0).
    + inversion C. reflexivity.
    + rewrite C. reflexivity.
  - unfold ops0, tx_all. rewrite B1. change (tx_pending t0) with (@nil op). rewrite app_nil_r. reflexivity.
Qed.

Lemma migrate_inv e ops a new :
  wf_tx (begin_tx ops a) -> migrate e ops a = EOk new ->
  exists t', tx_all t' = tx_all (begin_tx ops a) ++ new /\ minv (tx_all (begin_tx ops a)) t' (mig_final (tx_all (begin_tx ops a))).
Proof.
  intros W M. destruct (migrate_run e ops a W) as (t' & M' & All & I). rewrite M in M'. inversion M'. eauto.
Qed.

Lemma mig_final_eq t obj K :
  wf_tx t ->
  mig_final (tx_all t) obj K =
  if existsb (fun b => targets (tx_all t) (fst b) obj K) (blocks (tx_all t)) then last_str (reg_at (tx_all t) obj K) else None.
Proof.
  intros W. unfold mig_final, last_target. rewrite conversions_blocks. apply blocks_fold.
  intros [op r] Hb T. apply targets_true in T. destruct T as [<- <-].
  destruct (blocks_spec t op r W Hb) as (ty & _ & _ & _ & Li). exact (listed_reg _ _ _ _ _ Li).
Qed.

Lemma final_listed t obj ty K r :
  wf_tx t -> lookup_type (tx_all t) obj = Some ty -> listed (tx_all t) obj ty K r ->
  mig_final (tx_all t) obj K = last_str r.
Proof.
  intros W L Li. rewrite (mig_final_eq t obj K W), <- (listed_reg _ _ _ _ _ Li).
  destruct r as [|iw r]; [destruct (existsb _ _); reflexivity|].
  destruct (listed_block _ _ _ _ _ (proj2 (objects_lookup t _ _ W) L) Li) as (p & Hb & Ek); [discriminate|].
  replace (existsb _ _) with true; [reflexivity|]. symmetry. apply existsb_exists.
  exists (obj, p, iw :: r). split; [exact Hb|]. apply targets_true. auto.
Qed.

Lemma final_non_container t obj ty K :
  wf_tx t -> lookup_type (tx_all t) obj = Some ty -> ~ container ty -> mig_final (tx_all t) obj K = None.
Proof.
  intros W L NC. rewrite (mig_final_eq t obj K W). destruct (existsb _ _) eqn:E; [|reflexivity].
  apply existsb_exists in E. destruct E as ([op r] & Hb & T). apply targets_true in T. cbn [fst] in T. destruct T as [<- _].
  destruct (blocks_spec t op r W Hb) as (ty' & L' & _ & C & _). rewrite L in L'. inversion L'; subst. destruct (NC C).
Qed.

(* what the load leaves in a register the original document lists *)
Lemma migrate_listed e ops a new :
  wf_tx (begin_tx ops a) -> migrate e ops a = EOk new ->
  let ops0 := tx_all (begin_tx ops a) in
  forall obj ty K r, lookup_type ops0 obj = Some ty -> listed ops0 obj ty K r ->
  match last_str r with
  | Some s => shows_text ops0 (ops0 ++ new) obj K s
  | None => reg_at (ops0 ++ new) obj K = r
  end.
Proof.
  intros W M ops0 obj ty K r L Li. destruct (migrate_inv e ops a new W M) as (t' & All & I).
  unfold ops0. rewrite <- All.
  pose proof (mi_reg _ _ _ I obj ty K L) as R. rewrite (final_listed _ obj ty K r W L Li) in R.
  destruct (last_str r); [exact R|]. rewrite R. symmetry. apply (listed_reg _ _ _ _ _ Li).
Qed.

(* every register without a visible string keeps its values; objects that are not maps or lists are not
   touched at all; every object keeps its type and the order of its elements *)
Theorem migrate_others_untouched e ops a new :
  wf_tx (begin_tx ops a) -> migrate e ops a = EOk new ->
  let ops0 := tx_all (begin_tx ops a) in
  let ops' := ops0 ++ new in
  (forall obj ty K r, lookup_type ops0 obj = Some ty -> listed ops0 obj ty K r -> last_str r = None ->
     reg_at ops' obj K = r) /\
  (forall obj ty K, lookup_type ops0 obj = Some ty -> ~ container ty -> reg_at ops' obj K = reg_at ops0 obj K) /\
  (forall obj ty, lookup_type ops0 obj = Some ty ->
     lookup_type ops' obj = Some ty /\ elem_order (obj_ops ops' obj) = elem_order (obj_ops ops0 obj) /\
     map fst (seq_elems ops' obj) = map fst (seq_elems ops0 obj)).
Proof.
  intros W M ops0 ops'. split.
  { intros obj ty K r L Li Ls. pose proof (migrate_listed e ops a new W M obj ty K r L Li) as R.
    rewrite Ls in R. exact R. }
  destruct (migrate_inv e ops a new W M) as (t' & All & I). unfold ops', ops0. rewrite <- All. split.
  - intros obj ty K L NC. pose proof (mi_reg _ _ _ I obj ty K L) as R.
    rewrite (final_non_container _ obj ty K W L NC) in R. exact R.
  - intros obj ty L. split; [eapply mi_type; eauto|]. split; [eapply mi_order; eauto|]. eapply minv_elems; eauto.
Qed.

(* after the load no map key and no list element shows a string scalar *)
Theorem migrate_no_visible_string e ops a new :
  wf_tx (begin_tx ops a) -> migrate e ops a = EOk new ->
  let ops' := tx_all (begin_tx ops a) ++ new in
  forall obj ty K r, lookup_type ops' obj = Some ty -> container ty -> listed ops' obj ty K r -> no_str r.
Proof.
  intros W M ops' obj ty K r L' C Li'. rewrite (listed_reg _ _ _ _ _ Li').
  pose proof (migrate_listed e ops a new W M obj ty K) as R. cbv zeta in R. fold ops' in R.
  destruct (migrate_inv e ops a new W M) as (t' & All & I). unfold ops' in L', Li'. rewrite <- All in L', Li'.
  set (ops0 := tx_all (begin_tx ops a)) in *.
  assert (L : lookup_type ops0 obj = Some ty).
  { destruct (mi_new _ _ _ I obj ty L') as [H|H]; [exact H|]. subst ty. destruct C; discriminate. }
  (* the register is listed in the original document too *)
  assert (Li : listed ops0 obj ty K (reg_at ops0 obj K)).
  { destruct Li' as [(-> & k & -> & _)|(-> & el & -> & Hin)].
    - left. split; [reflexivity|]. exists k. auto.
    - right. split; [reflexivity|]. exists el. split; [reflexivity|].
      pose proof (in_map fst _ _ Hin) as Hel. rewrite (minv_elems _ _ _ _ _ I L) in Hel.
      apply in_map_iff in Hel. destruct Hel as ([el' r0] & Q & Hin0). cbn in Q. subst el'.
      destruct (seq_elems_reg _ _ _ _ Hin0) as [<- _]. exact Hin0. }
  specialize (R _ L Li). destruct (last_str (reg_at ops0 obj K)) as [s|] eqn:Ls.
  - destruct R as (id & -> & _). intros i s' [Q|[]]. inversion Q.
  - rewrite R. apply last_str_none, Ls.
Qed.

(* a document without a visible string gets no change; with one it gets exactly the ops of one change *)
Theorem migrate_noop_no_change e ops a :
  wf_tx (begin_tx ops a) ->
  let ops0 := tx_all (begin_tx ops a) in
  (forall obj ty K r, lookup_type ops0 obj = Some ty -> container ty -> listed ops0 obj ty K r -> no_str r) ->
  migrate e ops a = EOk [].
Proof.
  intros W ops0 H. unfold migrate. fold ops0.
  replace (conversions ops0) with (@nil conv); [reflexivity|]. symmetry.
  rewrite conversions_blocks. apply flat_map_nil. intros [op r] Hb.
  destruct (blocks_spec _ op r W Hb) as (ty & L & _ & C & Li). apply str_convs_nil, (H _ ty _ r L C Li).
Qed.

Theorem migrate_change_iff e ops a new :
  wf_tx (begin_tx ops a) -> migrate e ops a = EOk new ->
  let ops0 := tx_all (begin_tx ops a) in
  (new = [] <->
   forall obj ty K r, lookup_type ops0 obj = Some ty -> container ty -> listed ops0 obj ty K r -> no_str r).
Proof.
  intros W M ops0. split.
  - intros -> obj ty K r L C Li. apply last_str_none.
    destruct (last_str r) as [s|] eqn:Ls; [|reflexivity]. exfalso.
    pose proof (migrate_listed e ops a [] W M obj ty K r L Li) as R. rewrite Ls in R.
    destruct R as (id & _ & N0 & N1 & _). rewrite app_nil_r in N1. congruence.
  - intros H. rewrite (migrate_noop_no_change e ops a W H) in M. inversion M. reflexivity.
Qed.
