(* Proofs about Crdt/Update.v (C27).  The hook: after the script has consumed old[..oi] and produced
   new[..ni] the index is the width of new[..ni] and the text is new[..ni] ++ old[oi..] ([hinv]); every
   splice then falls on element boundaries ([splice_exact]).  update_list: the state of the zip loop in
   closed form ([ul_loop_spec]).  update_map: the three passes are followed through [mlookup]. *)
From AM Require Import Base.Prelude Base.Order Crdt.Types Crdt.Interp Crdt.Local Crdt.TextProofs Crdt.Update.
Local Open Scope N_scope.

Lemma take_w_exact e a b : take_w e (str_width e a) (a ++ b) = (a, b).
Proof.
  induction a as [|c a IH]; cbn [str_width app take_w].
  - destruct b; reflexivity.
  - pose proof (cp_width_bounds e c) as Bc.
    replace (cp_width e c + str_width e a =? 0) with false by (symmetry; apply N.eqb_neq; lia).
    replace (cp_width e c + str_width e a - cp_width e c) with (str_width e a) by lia.
    rewrite IH. reflexivity.
Qed.

Lemma splice_exact e P D R ins :
  splice_str e (P ++ D ++ R) (str_width e P) (str_width e D) ins = P ++ ins ++ R.
Proof. unfold splice_str. rewrite take_w_exact. cbn [fst snd]. rewrite take_w_exact. reflexivity. Qed.

Lemma skipn_add {A} (l : list A) i n : skipn i l = slice l i n ++ skipn (i + n) l.
Proof. unfold slice. apply (app_inv_head (firstn i l)). rewrite app_assoc, <- firstn_add, !firstn_skipn. reflexivity. Qed.

Lemma glist_eqb_true a b : glist_eqb a b = true -> a = b.
Proof. apply (list_eqb_spec nlist_eqb). exact bytes_eqb_spec. Qed.

Definition hinv (e : enc) (old new : list grapheme) (oi ni : nat) (st : hstate) : Prop :=
  fst st = gwidth e (firstn ni new) /\ snd st = concat (firstn ni new) ++ concat (skipn oi old).

(* one splice: D = old[oi .. oi+ol] goes, S = new[ni .. ni+nl] comes; delete is nl = 0, insert ol = 0 *)
Lemma hinv_splice e old new oi ni ol nl st :
  hinv e old new oi ni st ->
  hinv e old new (oi + ol) (ni + nl)
    (fst st + gwidth e (slice new ni nl),
     splice_str e (snd st) (fst st) (gwidth e (slice old oi ol)) (concat (slice new ni nl))).
Proof.
  destruct st as [idx text]. unfold hinv, gwidth. cbn [fst snd]. intros [-> ->].
  rewrite firstn_add, (skipn_add old oi ol), !concat_app, str_width_app, splice_exact, <- app_assoc.
  split; reflexivity.
Qed.

Lemma hinv_equal e old new oi ni len st :
  hinv e old new oi ni st -> slice old oi len = slice new ni len ->
  hinv e old new (oi + len) (ni + len) (fst st + gwidth e (slice old oi len), snd st).
Proof.
  destruct st as [idx text]. unfold hinv, gwidth. cbn [fst snd]. intros [-> ->] Eq.
  rewrite firstn_add, (skipn_add old oi len), !concat_app, str_width_app, <- app_assoc, Eq.
  split; reflexivity.
Qed.

Lemma run_hooks_sound e old new s : forall oi ni st,
  hinv e old new oi ni st -> wf_from old new oi ni s = true ->
  run_hooks e old new st s = Ok (gwidth e new, concat new).
Proof.
  induction s as [|h r IH]; intros oi ni st I W.
  - cbn [wf_from] in W. apply andb_true_iff in W. destruct W as [Eo En]. apply Nat.eqb_eq in Eo, En. subst oi ni.
    destruct I as [Hi Ht]. rewrite firstn_all in Hi, Ht. rewrite skipn_all, app_nil_r in Ht.
    cbn [run_hooks]. destruct st; cbn [fst snd] in *; subst; reflexivity.
  - destruct h as [o n len|o ol n|o n nl|o ol n nl]; cbn [wf_from] in W; rewrite !andb_true_iff in W;
      cbn [run_hooks hook_step].
    + destruct W as [[[[[Eo%Nat.eqb_eq En%Nat.eqb_eq] Ro] Rn] Eq%glist_eqb_true] W]. subst o n. rewrite Ro.
      exact (IH _ _ _ (hinv_equal e old new oi ni len st I Eq) W).
    + destruct W as [[Eo%Nat.eqb_eq Ro] W]. subst o. rewrite Ro.
      pose proof (hinv_splice e old new oi ni ol 0 st I) as I'. rewrite Nat.add_0_r, N.add_0_r in I'.
      exact (IH _ _ _ I' W).
    + destruct W as [[En%Nat.eqb_eq Rn] W]. subst n. rewrite Rn.
      pose proof (hinv_splice e old new oi ni 0 nl st I) as I'. rewrite Nat.add_0_r in I'.
      exact (IH _ _ _ I' W).
    + destruct W as [[[[Eo%Nat.eqb_eq En%Nat.eqb_eq] Ro] Rn] W]. subst o n. rewrite Ro, Rn.
      exact (IH _ _ _ (hinv_splice e old new oi ni ol nl st I) W).
Qed.

(* the Myers search is trusted to hand the hook a script that tiles old and new ([wf_script], which the
   harness checks on the recovered script); [hook_step] panics on nothing but a slice out of range *)
Theorem script_sound e old new s :
  wf_script old new s = true -> apply_script e old new s = Ok (concat new).
Proof.
  intros W. unfold apply_script. rewrite (run_hooks_sound e old new s 0 0 (0, concat old)); [reflexivity| |exact W].
  split; reflexivity.
Qed.

Lemma nlist_eqb_refl k : nlist_eqb k k = true.
Proof. apply bytes_eqb_spec. reflexivity. Qed.

Lemma nlist_eqb_neq a b : a <> b -> nlist_eqb a b = false.
Proof. intros H. destruct (nlist_eqb a b) eqn:E; [|reflexivity]. apply bytes_eqb_spec in E. contradiction. Qed.

Lemma nlist_eqb_excl k0 k k' : nlist_eqb k0 k = false -> nlist_eqb k0 k' = true -> nlist_eqb k k' = false.
Proof. intros E0 E1. apply bytes_eqb_spec in E1. subst k'. apply nlist_eqb_neq. intros ->. rewrite nlist_eqb_refl in E0. discriminate. Qed.

Lemma map_filter_comm {A B} (g : A -> B) (p : B -> bool) l :
  map g (filter (fun x => p (g x)) l) = filter p (map g l).
Proof. induction l as [|x l IH]; cbn [filter map]; [reflexivity|]. destruct (p (g x)); cbn [map]; rewrite IH; reflexivity. Qed.

Section ReconcileProofs.
  Variable V : Type.
  Variable upd : option V -> V -> V.
  Hypothesis upd_spec : forall o n, upd o n = n.       (* the recursive call / the replacement reaches its target *)

  Lemma set_nth_app (pre : list V) x post v : set_nth V (pre ++ x :: post) (length pre) v = Ok (pre ++ v :: post).
  Proof. induction pre as [|y pre IH]; cbn; [reflexivity|]. rewrite IH. reflexivity. Qed.

  Lemma insert_nth_end (pre : list V) v : insert_nth V pre (length pre) v = Ok (pre ++ [v]).
  Proof. induction pre as [|y pre IH]; cbn; [reflexivity|]. rewrite IH. reflexivity. Qed.

  Lemma delete_nth_app (pre : list V) x post : delete_nth V (pre ++ x :: post) (length pre) = Ok (pre ++ post).
  Proof. induction pre as [|y pre IH]; cbn; [reflexivity|]. rewrite IH. reflexivity. Qed.

  Lemma ul_ins_spec news : forall cur, ul_ins V upd cur (length cur) news = Ok (cur ++ news).
  Proof.
    induction news as [|n ns IH]; intros cur; cbn [ul_ins]; [rewrite app_nil_r; reflexivity|].
    rewrite insert_nth_end, upd_spec, <- (last_length cur n), IH, <- app_assoc. reflexivity.
  Qed.

  (* after the zip loop: the common prefix is updated, surplus old elements are still there and counted,
     surplus new elements are appended *)
  Lemma ul_loop_spec olds : forall done news td,
    ul_loop V upd (done ++ olds) (length done) olds news td =
    Ok (done ++ firstn (length olds) news ++ skipn (length news) olds ++ skipn (length olds) news,
        (td + (length olds - length news))%nat).
  Proof.
    induction olds as [|o os IH]; intros done news td; cbn [ul_loop].
    - rewrite app_nil_r, ul_ins_spec. cbn. rewrite skipn_nil. cbn. rewrite Nat.add_0_r. reflexivity.
    - destruct news as [|n ns].
      + change (done ++ o :: os) with (done ++ [o] ++ os).
        rewrite (app_assoc done [o] os), <- (last_length done o), IH. cbn. rewrite firstn_nil, !skipn_nil. cbn. rewrite !app_nil_r, <- app_assoc. cbn.
        f_equal. f_equal. lia.
      + rewrite set_nth_app, upd_spec.
        change (done ++ n :: os) with (done ++ [n] ++ os).
        rewrite (app_assoc done [n] os), <- (last_length done n), IH. cbn. rewrite <- app_assoc. reflexivity.
  Qed.

  Lemma del_desc_spec n : forall pre mid post,
    length mid = n -> del_desc V (pre ++ mid ++ post) (length pre) n = Ok (pre ++ post).
  Proof.
    induction n as [|n IH]; intros pre mid post L; cbn [del_desc].
    - destruct mid; [reflexivity|discriminate].
    - destruct (exists_last (l := mid)) as (mid' & x & ->); [intros ->; discriminate|].
      rewrite app_length in L. cbn in L.
      replace (pre ++ (mid' ++ [x]) ++ post) with ((pre ++ mid') ++ x :: post) by (rewrite <- !app_assoc; reflexivity).
      replace (length pre + n)%nat with (length (pre ++ mid')) by (rewrite app_length; lia).
      rewrite delete_nth_app, <- app_assoc. apply IH. lia.
  Qed.

  Theorem update_list_reaches old new : update_list V upd old new = Ok new.
  Proof.
    unfold update_list. pose proof (ul_loop_spec old [] new 0) as H. cbn [app length] in H. rewrite H. clear H.
    destruct (Nat.le_ge_cases (length old) (length new)) as [Le|Ge].
    - (* growing or same length *)
      replace (length old - length new)%nat with O by lia. cbn [Nat.add del_desc].
      rewrite (skipn_all2 old) by lia. cbn [app]. rewrite firstn_skipn. reflexivity.
    - (* shrinking: the surplus tail is deleted *)
      rewrite (skipn_all2 new) by lia. rewrite app_nil_r. rewrite (firstn_all2 new) by lia.
      cbn [Nat.add].
      rewrite <- (app_nil_r (skipn (length new) old)).
      rewrite (del_desc_spec (length old - length new) new (skipn (length new) old) []).
      + rewrite app_nil_r. reflexivity.
      + rewrite skipn_length. reflexivity.
  Qed.

  Lemma mlookup_mput m k v k' :
    mlookup V (mput V m k v) k' = if nlist_eqb k k' then Some v else mlookup V m k'.
  Proof.
    induction m as [|[k0 v0] m IH]; cbn [mput mlookup].
    - reflexivity.
    - destruct (nlist_eqb k0 k) eqn:E0.
      + apply bytes_eqb_spec in E0. subst k0. cbn [mlookup]. destruct (nlist_eqb k k'); reflexivity.
      + cbn [mlookup]. rewrite IH. destruct (nlist_eqb k0 k') eqn:E1; [rewrite (nlist_eqb_excl _ _ _ E0 E1)|]; reflexivity.
  Qed.

  Lemma mlookup_mdel m k k' :
    mlookup V (mdel V m k) k' = if nlist_eqb k k' then None else mlookup V m k'.
  Proof.
    induction m as [|[k0 v0] m IH]; cbn [mdel mlookup].
    - destruct (nlist_eqb k k'); reflexivity.
    - destruct (nlist_eqb k0 k) eqn:E0.
      + apply bytes_eqb_spec in E0. subst k0. rewrite IH. destruct (nlist_eqb k k'); reflexivity.
      + cbn [mlookup]. rewrite IH. destruct (nlist_eqb k0 k') eqn:E1; [rewrite (nlist_eqb_excl _ _ _ E0 E1)|]; reflexivity.
  Qed.

  Lemma mhas_false m k : mhas V m k = false -> mlookup V m k = None.
  Proof. unfold mhas. destruct (mlookup V m k); [discriminate|reflexivity]. Qed.

  Lemma mhas_in m k : mhas V m k = true <-> In k (map fst m).
  Proof.
    unfold mhas. induction m as [|[k0 v0] m IH]; cbn [mlookup map fst In]; [split; [discriminate|intros []]|].
    destruct (nlist_eqb k0 k) eqn:E.
    - apply bytes_eqb_spec in E. tauto.
    - rewrite IH. split; [tauto|]. intros [->|H]; [|exact H]. rewrite nlist_eqb_refl in E. discriminate.
  Qed.

  (* the step of the first two passes: the key handed over takes the target's value, if the target has one *)
  Definition madd (new c : list (mkey * V)) (k : mkey) : list (mkey * V) :=
    match mlookup V new k with Some nv => mput V c k (upd None nv) | None => c end.

  Lemma mlookup_madd new c k0 k :
    mlookup V (madd new c k0) k = if nlist_eqb k0 k && mhas V new k then mlookup V new k else mlookup V c k.
  Proof.
    unfold madd, mhas. destruct (nlist_eqb k0 k) eqn:E.
    - apply bytes_eqb_spec in E. subst k0. destruct (mlookup V new k) as [nv|]; [|reflexivity].
      rewrite mlookup_mput, upd_spec, nlist_eqb_refl. reflexivity.
    - destruct (mlookup V new k0) as [nv|]; [|reflexivity]. rewrite mlookup_mput, E. reflexivity.
  Qed.

  (* the first pass is a fold of [madd] over the old keys; the keys the target lacks are collected *)
  Lemma um_present_eq new snap : forall cur del,
    um_present V upd cur snap new del =
    (fold_left (madd new) (map fst snap) cur, rev (filter (fun k => negb (mhas V new k)) (map fst snap)) ++ del).
  Proof.
    induction snap as [|[k0 v0] snap IH]; intros cur del; cbn [um_present map fst fold_left filter]; [reflexivity|].
    unfold madd at 2, mhas. destruct (mlookup V new k0) as [nv|]; rewrite IH; cbn [negb rev].
    - rewrite !upd_spec. reflexivity.
    - rewrite <- app_assoc. reflexivity.
  Qed.

  (* a fold over keys whose step, handed [k], gives it the value [a] provided [b], and otherwise leaves [k] alone *)
  Lemma fold_keys_spec (step : list (mkey * V) -> mkey -> list (mkey * V)) k (b : bool) (a : option V) :
    (forall c k0, mlookup V (step c k0) k = if nlist_eqb k0 k && b then a else mlookup V c k) ->
    forall ks cur,
    (b = true -> In k ks -> mlookup V (fold_left step ks cur) k = a) /\
    (b = false \/ ~ In k ks -> mlookup V (fold_left step ks cur) k = mlookup V cur k).
  Proof.
    intros Hs. induction ks as [|k0 ks IH]; intros cur; cbn [fold_left]; [split; [intros _ []|reflexivity]|].
    destruct (IH (step cur k0)) as [A B]. rewrite Hs in B. split.
    - intros Hb Hin. destruct (in_dec (list_eq_dec N.eq_dec) k ks) as [I|NI]; [exact (A Hb I)|].
      destruct Hin as [->|Hin]; [|contradiction]. rewrite B, nlist_eqb_refl, Hb by (right; exact NI). reflexivity.
    - intros H. rewrite B by (destruct H as [H|H]; [left; exact H|right; intros I; apply H; right; exact I]).
      destruct H as [->|NI]; [rewrite andb_false_r; reflexivity|]. rewrite nlist_eqb_neq; [reflexivity|].
      intros ->. apply NI. left. reflexivity.
  Qed.

  Theorem update_map_reaches old new k : mlookup V (update_map V upd old new) k = mlookup V new k.
  Proof.
    unfold update_map. rewrite um_present_eq, app_nil_r. fold (madd new). rewrite <- fold_left_app.
    set (dels := isort _ (rev _)). set (adds := isort _ _).
    assert (Ia : In k adds <-> mhas V new k = true /\ mhas V old k = false).
    { unfold adds. rewrite In_isort, (map_filter_comm fst (fun k => negb (mhas V old k))), filter_In, <- mhas_in, negb_true_iff.
      reflexivity. }
    assert (Id : In k dels <-> mhas V old k = true /\ mhas V new k = false).
    { unfold dels. rewrite In_isort, <- in_rev, filter_In, <- mhas_in, negb_true_iff. reflexivity. }
    destruct (fold_keys_spec (mdel V) k true None) with (ks := dels) (cur := fold_left (madd new) (map fst old ++ adds) old)
      as [D1 D2]; [intros c k0; rewrite andb_true_r; apply mlookup_mdel|].
    destruct (fold_keys_spec (madd new) k _ _ (fun c k0 => mlookup_madd new c k0 k) (map fst old ++ adds) old) as [A1 A2].
    rewrite Id in D1, D2. rewrite in_app_iff, <- mhas_in, Ia in A1.
    destruct (mhas V new k) eqn:Hn, (mhas V old k) eqn:Ho.
    - rewrite D2, A1 by (auto; right; intros [_ ?]; discriminate). reflexivity.
    - rewrite D2, A1 by (auto; right; intros [? _]; discriminate). reflexivity.
    - rewrite D1 by auto. symmetry. apply mhas_false, Hn.
    - rewrite D2, A2, !mhas_false by (auto; right; intros [? _]; discriminate). reflexivity.
  Qed.
End ReconcileProofs.
