(* Crdt/ErrProofs.v — what a failed [apply_changes] leaves behind (C06). *)
From AM Require Import Base.Prelude Base.Order Crdt.Types Crdt.Doc.
Local Open Scope N_scope.

(* a failed delivery leaves the applied changes alone and at most drops held changes *)
Lemma receive_err_state_filter d cs :
  exists f, receive_err_state d cs = mkDoc (applied d) (filter f (queue d)).
Proof.
  unfold receive_err_state. destruct (first_applied_collision d [] _).
  - eexists. reflexivity.
  - exists (fun _ => true). destruct d as [a q]. cbn [applied queue]. rewrite filter_all_true; auto.
Qed.

Lemma err_state_applied d cs : applied (receive_err_state d cs) = applied d.
Proof. destruct (receive_err_state_filter d cs) as [f ->]. reflexivity. Qed.

(* The full property "a failed call leaves the pending queue unchanged" is FALSE of the
   faithful model, hence of the code (known finding, DESIGN.md §9-D1): a1, a2 applied, a
   legitimate a3 held back waiting for b1; a conflicting a2' arrives, the call fails, and a3
   is gone from the queue. *)
Module Witness.
  Definition A : actor := [1].
  Definition a1 := mkChange 101 A 1 1 [] [].
  Definition a2 := mkChange 102 A 2 2 [101] [].
  Definition a3 := mkChange 103 A 3 3 [102; 201] [].      (* needs b1 = 201, not delivered *)
  Definition a2' := mkChange 999 A 2 2 [101] [].
  Definition d0 : doc := mkDoc [a1; a2] [a3].
End Witness.

Theorem failed_call_can_drop_held_changes :
  exists d cs, receive d cs = Err /\ queue d <> [] /\ queue (receive_err_state d cs) = [].
Proof.
  exists Witness.d0, [Witness.a2']. vm_compute. repeat split; discriminate.
Qed.

(* the witness state is reachable: it is what delivering a1, a2, a3 produces *)
Example witness_reachable :
  (let* d1 := receive empty_doc [Witness.a1; Witness.a2] in receive d1 [Witness.a3]) = Ok Witness.d0.
Proof. vm_compute. reflexivity. Qed.
