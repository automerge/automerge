(* Crdt/UndoProofs.v — the undo log of the op set undoes what it logged (C28, mechanism layer):
   [undo_succ] applied to the log [add_succ_with_undo] returns restores the succ_count, successor,
   visible, text-width and top columns exactly.  Then the invariant [top_vis] (no top flag on an op
   that is not visible), which adding successors keeps ([add_succ_keeps_top_visible], used by C29). *)
From AM Require Import Base.Prelude Base.ListFacts Base.Order Crdt.Types Crdt.Txn.
Local Open Scope N_scope.

(* what an undo entry does to one column: write the logged value back, if one was logged *)
Definition restore {A} (p : nat) (o : option A) (l : list A) : res (list A) :=
  match o with Some v => set_at p v l | None => Ok l end.

Lemma set_at_round {A} (l : list A) : forall p v, (p < length l)%nat ->
  exists l', set_at p v l = Ok l' /\ length l' = length l /\ restore p (nth_error l p) l' = Ok l.
Proof.
  induction l as [|x t IH]; intros p v H; cbn [length] in H; [lia|].
  destruct p as [|q]; cbn [set_at nth_error].
  - eexists. repeat split.
  - destruct (IH q v ltac:(lia)) as (t' & E & L & R). rewrite E. eexists. split; [reflexivity|]. split; [cbn; lia|].
    destruct (nth_error t q); cbn [restore set_at] in *; [rewrite R|inversion R]; reflexivity.
Qed.

Lemma set_at_spec {A} (l : list A) : forall p v l' q,
  set_at p v l = Ok l' -> nth_error l' q = if Nat.eqb q p then Some v else nth_error l q.
Proof.
  induction l as [|x t IH]; intros p v l' q H; [destruct p; discriminate|].
  destruct p as [|p']; cbn [set_at] in H.
  - inversion H; subst. destruct q; reflexivity.
  - destruct (bind_ok _ _ _ H) as (t' & E & H'). inversion H'; subst. destruct q; [reflexivity|]. apply (IH _ _ _ _ E).
Qed.

Lemma ins_at_round {A} (l : list A) : forall p v, (p <= length l)%nat ->
  exists l', ins_at p v l = Ok l' /\ length l' = S (length l) /\ del_at p l' = Ok l.
Proof.
  induction l as [|x t IH]; intros p v H; cbn [length] in H.
  - assert (p = O) by lia. subst. cbn. eexists. repeat split.
  - destruct p as [|q]; cbn [ins_at].
    + eexists. repeat split.
    + destruct (IH q v ltac:(lia)) as (t' & E & L & D). rewrite E. eexists. split; [reflexivity|].
      cbn [length del_at]. rewrite D. split; [lia|reflexivity].
Qed.

Definition cols_len (c c' : cols) : Prop :=
  length (c_cnt c') = length (c_cnt c) /\ length (c_vis c') = length (c_vis c) /\
  length (c_text c') = length (c_text c) /\ length (c_top c') = length (c_top c) /\
  (length (c_sub c) <= length (c_sub c'))%nat.

Lemma add_one_inverse s i :
  wf_ins (as_cols s) i ->
  exists s' u,
    add_one s i = Ok s' /\ as_undo s' = as_undo s ++ [u] /\
    undo_one (as_cols s') u = Ok (as_cols s) /\ cols_len (as_cols s) (as_cols s') /\
    (forall q, q <> si_pos i -> nth_error (c_cnt (as_cols s')) q = nth_error (c_cnt (as_cols s)) q).
Proof.
  intros (Hc & Hv & Ht & Hp & Hs & Hlen).
  destruct s as [[cnt vis text top sub] undo inc last expose delete]. cbn [as_cols c_cnt c_vis c_text c_top c_sub] in *.
  unfold add_one. cbn [as_cols as_undo as_inc as_last as_expose as_delete c_cnt c_vis c_text c_top c_sub].
  set (sinc := match last with Some p => if Nat.eqb p (si_pos i) then inc + 1 else 1 | None => 1 end).
  destruct (set_at_round cnt (si_pos i) (si_len i + sinc) Hc) as (cnt' & Ec & Lc & Uc).
  destruct (ins_at_round sub (si_sub i) (si_id i, si_inc i) Hs) as (sub' & Es & Ls & Us).
  rewrite Ec, Es. cbn [bind]. rewrite Hlen in Uc. cbn [restore] in Uc.
  (* every branch ends in a state whose vis, text and top columns are restored by what it logged *)
  assert (Fin : forall vis' text' top' ov ot op inc' last' exp' del',
    length vis' = length vis -> length text' = length text -> length top' = length top ->
    restore (si_pos i) ov vis' = Ok vis -> restore (si_pos i) ot text' = Ok text ->
    restore (si_pos i) op top' = Ok top ->
    exists s' u,
      Ok (mkAS (mkCols cnt' vis' text' top' sub') (undo ++ [mkSU i ov ot op]) inc' last' exp' del') = Ok s' /\
      as_undo s' = undo ++ [u] /\ undo_one (as_cols s') u = Ok (mkCols cnt vis text top sub) /\
      cols_len (mkCols cnt vis text top sub) (as_cols s') /\
      (forall q, q <> si_pos i -> nth_error (c_cnt (as_cols s')) q = nth_error cnt q)).
  { intros vis' text' top' ov ot op inc' last' exp' del' Lv Lx Lt Rv Rx Rt.
    eexists. eexists. split; [reflexivity|]. cbn [as_undo as_cols]. split; [reflexivity|].
    split; [|split; [repeat split; cbn; lia|]].
    - unfold undo_one, restore in *. cbn [su_ins su_vis su_text su_top c_cnt c_vis c_text c_top c_sub].
      rewrite Uc, Us. cbn [bind]. rewrite Rv, Rx, Rt. reflexivity.
    - intros q Hq. cbn [c_cnt]. rewrite (set_at_spec _ _ _ _ q Ec). apply Nat.eqb_neq in Hq. rewrite Hq. reflexivity. }
  destruct (si_inc i) as [z|].
  - destruct (delete && negb expose); [destruct (negb (option_eqb Bool.eqb (nth_error vis (si_pos i)) (Some true)))|].
    1, 3: apply (Fin vis text top None None None); reflexivity.
    destruct (set_at_round top (si_pos i) true Hp) as (top' & Et & Lt & Rt).
    destruct (set_at_round text (si_pos i) (si_width i) Ht) as (text' & Ex & Lx & Rx).
    rewrite Et, Ex. apply (Fin vis text' top' None); auto.
  - destruct (set_at_round vis (si_pos i) false Hv) as (vis' & Ev & Lv & Rv).
    destruct (set_at_round text (si_pos i) None Ht) as (text' & Ex & Lx & Rx).
    destruct (set_at_round top (si_pos i) false Hp) as (top' & Et & Lt & Rt).
    rewrite Ev, Ex, Et. apply Fin; auto.
Qed.

Lemma wf_ins_preserved c c' i j :
  wf_ins c j -> cols_len c c' -> si_pos j <> si_pos i ->
  (forall q, q <> si_pos i -> nth_error (c_cnt c') q = nth_error (c_cnt c) q) -> wf_ins c' j.
Proof.
  intros (Hc & Hv & Ht & Hp & Hs & Hlen) (L1 & L2 & L3 & L4 & L5) Hne Hoth.
  unfold wf_ins. rewrite L1, L2, L3, L4. repeat split; try assumption; [lia|].
  rewrite (Hoth _ Hne). exact Hlen.
Qed.

Lemma undo_loop_app c l1 l2 : undo_loop c (l1 ++ l2) = (let* c' := undo_loop c l1 in undo_loop c' l2).
Proof.
  revert c. induction l1 as [|u t IH]; intros c; cbn [undo_loop app]; [reflexivity|].
  destruct (undo_one c u) as [c1| |]; cbn [bind]; [apply IH|reflexivity|reflexivity].
Qed.

Lemma add_loop_inverse L : forall s,
  NoDup (map si_pos L) -> (forall j, In j L -> wf_ins (as_cols s) j) ->
  exists s' us,
    add_loop s L = Ok s' /\ as_undo s' = as_undo s ++ us /\ length us = length L /\
    undo_loop (as_cols s') (rev us) = Ok (as_cols s).
Proof.
  induction L as [|i t IH]; intros s Hnd Hwf.
  - exists s, []. cbn. rewrite app_nil_r. auto.
  - cbn [map] in Hnd. inversion Hnd as [|? ? Hnotin Hnd']; subst.
    destruct (add_one_inverse s i (Hwf i (or_introl eq_refl))) as (s1 & u & E1 & U1 & I1 & L1 & O1).
    assert (Hwf1 : forall j, In j t -> wf_ins (as_cols s1) j).
    { intros j Hj. eapply wf_ins_preserved; [apply Hwf; right; exact Hj|exact L1| |exact O1].
      intros E. apply Hnotin. rewrite <- E. apply in_map. exact Hj. }
    destruct (IH s1 Hnd' Hwf1) as (s' & us & E2 & U2 & Len & I2).
    exists s', (u :: us). cbn [add_loop]. rewrite E1. cbn [bind]. split; [exact E2|].
    split; [rewrite U2, U1, <- app_assoc; reflexivity|]. split; [cbn; lia|].
    cbn [rev]. rewrite undo_loop_app, I2. cbn [bind undo_loop]. rewrite I1. reflexivity.
Qed.

(* C28, mechanism: for the inserts a local op produces (distinct op rows — the ops of one
   register found by the seek —, positions inside the columns, [len] = the row's successor count)
   add_succ_with_undo succeeds, logs one entry per insert, and undo_succ on that log gives back
   exactly the columns: successor counts, successor ids and increments, visible flags, text widths
   and top flags. *)
Theorem undo_succ_restores (c : cols) (ins : list sins) :
  NoDup (map si_pos ins) -> (forall i, In i ins -> wf_ins c i) ->
  exists c' us, add_succ_with_undo c ins = Ok (c', us) /\ length us = length ins /\
                undo_succ c' us = Ok c.
Proof.
  intros Hnd Hwf. unfold add_succ_with_undo, undo_succ.
  destruct (add_loop_inverse (rev ins) (mkAS c [] 0 None false false)) as (s' & us & E & U & Len & I).
  - rewrite map_rev. apply NoDup_rev. exact Hnd.
  - intros j Hj. apply Hwf. apply in_rev. exact Hj.
  - rewrite E. cbn [bind]. exists (as_cols s'), (as_undo s'). split; [reflexivity|].
    cbn [as_undo app] in U. rewrite U. split; [rewrite Len, rev_length; reflexivity|exact I].
Qed.

(* what the log holds is what it will write back: the flags of a superseded op as they were *)
Example undo_succ_example :
  let c := mkCols [0; 1; 0] [true; true; true] [Some 1; Some 1; Some 1] [false; false; true] [((9, [1]), Some 2%Z)] in
  (* an increment (id (12,[2])) naming a counter (row 1, stays visible) and a non-counter (row 2) *)
  let ins := [mkSI (12, [2]) 1 (Some 3%Z) 1 1 (Some 1); mkSI (12, [2]) 2 None 0 1 (Some 1)] in
  exists c' us, add_succ_with_undo c ins = Ok (c', us) /\
    c_vis c' = [true; true; false] /\ c_top c' = [false; true; false] /\ c_cnt c' = [0; 2; 1] /\
    undo_succ c' us = Ok c.
Proof. cbv zeta. eexists. eexists. split; [vm_compute; reflexivity|]. repeat split. Qed.

Lemma add_one_top_vis s i s' : add_one s i = Ok s' -> top_vis (as_cols s) -> top_vis (as_cols s').
Proof.
  destruct s as [[cnt vis text top sub] undo inc last expose delete]. unfold add_one, top_vis.
  cbn [as_cols as_undo as_inc as_last as_expose as_delete c_cnt c_vis c_text c_top c_sub].
  destruct (set_at (si_pos i) _ cnt) as [cnt'| |]; cbn [bind]; try discriminate.
  destruct (ins_at (si_sub i) _ sub) as [sub'| |]; cbn [bind]; try discriminate.
  destruct (si_inc i) as [z|].
  - destruct (delete && negb expose); [destruct (negb (option_eqb Bool.eqb (nth_error vis (si_pos i)) (Some true))) eqn:Evis|].
    1, 3: intros H Inv; inversion H; subst; exact Inv.
    (* the one row whose top flag is set was tested visible *)
    destruct (set_at (si_pos i) true top) as [top'| |] eqn:Et; cbn [bind]; try discriminate.
    destruct (set_at (si_pos i) (si_width i) text) as [text'| |]; cbn [bind]; try discriminate.
    intros H Inv. inversion H; subst. cbn [as_cols c_top c_vis]. intros q. rewrite (set_at_spec _ _ _ _ q Et).
    destruct (Nat.eqb_spec q (si_pos i)) as [->|_]; [intros _|apply Inv].
    apply negb_false_iff, (option_eqb_spec _ eqb_true_iff) in Evis. exact Evis.
  - (* the row loses its top flag together with its visible flag *)
    destruct (set_at (si_pos i) false vis) as [vis'| |] eqn:Ev; cbn [bind]; try discriminate.
    destruct (set_at (si_pos i) None text) as [text'| |]; cbn [bind]; try discriminate.
    destruct (set_at (si_pos i) false top) as [top'| |] eqn:Et; cbn [bind]; try discriminate.
    intros H Inv. inversion H; subst. cbn [as_cols c_top c_vis]. intros q.
    rewrite (set_at_spec _ _ _ _ q Et), (set_at_spec _ _ _ _ q Ev).
    destruct (Nat.eqb q (si_pos i)); [discriminate|apply Inv].
Qed.

Lemma add_loop_top_vis L : forall s s', add_loop s L = Ok s' -> top_vis (as_cols s) -> top_vis (as_cols s').
Proof.
  induction L as [|i t IH]; intros s s' H Inv; cbn [add_loop] in H.
  - inversion H; subst. exact Inv.
  - destruct (add_one s i) as [s1| |] eqn:E; cbn [bind] in H; try discriminate.
    eapply IH; [exact H|eapply add_one_top_vis; eassumption].
Qed.

(* As of the repair 9da869ded, for ANY inserts (a scoped transaction may name ops the document
   has superseded since), adding successors never leaves a top flag on an op that is not visible -
   the state in which reset_top's assertion fired before the repair. *)
Theorem add_succ_keeps_top_visible (c : cols) (ins : list sins) c' us :
  top_vis c -> add_succ_with_undo c ins = Ok (c', us) -> top_vis c'.
Proof.
  intros Inv H. unfold add_succ_with_undo in H.
  destruct (add_loop _ (rev ins)) as [s'| |] eqn:E; cbn [bind] in H; try discriminate.
  inversion H; subst. eapply add_loop_top_vis; [exact E|exact Inv].
Qed.

(* the columns of the repaired defect: a counter (row 0) and a concurrent null (row 1), both
   deleted in the document, named by an increment of a scoped transaction: no top flag is set,
   reset_top goes through and undo restores the columns *)
Example scoped_increment_fixed :
  let c := mkCols [1; 1] [false; false] [None; None] [false; false] [((8, [1]), None); ((12, [1]), None)] in
  let ins := [mkSI (20, [3]) 0 (Some 3%Z) 1 1 (Some 1); mkSI (20, [3]) 1 None 1 2 (Some 1)] in
  top_vis c /\
  exists c' us, add_succ_with_undo c ins = Ok (c', us) /\ c_top c' = [false; false] /\
                reset_top (c_vis c') (c_top c') 0 2 = Ok [false; false] /\ undo_succ c' us = Ok c.
Proof.
  cbv zeta. split.
  - intros p Hp. destruct p as [|[|p]]; cbn in Hp; try discriminate. destruct p; discriminate.
  - eexists. eexists. split; [vm_compute; reflexivity|]. repeat split.
Qed.
