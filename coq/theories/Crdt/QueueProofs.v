(* Crdt/QueueProofs.v — theorems about the causal change queue of Crdt/Doc.v:
   [release] releases exactly the reachable queued changes, [receive] keeps the
   applied set dependency-closed and the queue not ready, (actor, seq) pairs
   stay unique under a chain hypothesis (and NOT in general: see
   [actor_seq_not_preserved]), and the applied / queued sets after a run depend
   only on the set of delivered changes. *)
From AM Require Export Crdt.DocProofs.
From AM Require Import Base.Prelude Base.Order Crdt.Types Crdt.Doc.
Local Open Scope N_scope.

Definition hash_inj (u : list change) : Prop :=
  forall c c', In c u -> In c' u -> ch_hash c = ch_hash c' -> c = c'.

Definition dep_closed (a : list change) : Prop :=
  forall c, In c a -> forall h, In h (ch_deps c) -> has_hash a h = true.

(* c becomes applicable from applied set a0 using changes of u: least fixpoint *)
Inductive Reach (a0 u : list change) : change -> Prop :=
| Reach_intro c : In c u ->
    (forall h, In h (ch_deps c) ->
       has_hash a0 h = true \/ exists c', In c' u /\ ch_hash c' = h /\ Reach a0 u c') ->
    Reach a0 u c.

Lemma hash_inj_incl u u' : incl u u' -> hash_inj u' -> hash_inj u.
Proof. intros Hi H c c' Hc Hc' He. apply H; [apply Hi; exact Hc|apply Hi; exact Hc'|exact He]. Qed.

(* the premise is decided by computation on a concrete list *)
Lemma distinct_hash_inj u : dedupN (hashes u) = hashes u -> hash_inj u.
Proof. intros E. refine (NoDup_hash_inj u _). rewrite <- E. apply dedupN_NoDup. Qed.

Lemma filter_nil_false {A} (f : A -> bool) l : filter f l = [] -> forall x, In x l -> f x = false.
Proof.
  intros H x Hx. destruct (f x) eqn:E; [|reflexivity].
  assert (Hin : In x (filter f l)) by (apply filter_In; split; assumption).
  rewrite H in Hin. destruct Hin.
Qed.

Lemma filter_split_perm {A} (f : A -> bool) l :
  Permutation l (filter f l ++ filter (fun x => negb (f x)) l).
Proof.
  induction l as [|x l IH]; cbn [filter]; [constructor|].
  destruct (f x); cbn [negb app].
  - constructor. exact IH.
  - apply Permutation_cons_app. exact IH.
Qed.

(* the generated [Reach_ind] gives no hypothesis for the [Reach] under the ∃ of the premise; this
   principle does ([P c']) *)
Lemma Reach_ind' (a0 u : list change) (P : change -> Prop) :
  (forall c, In c u ->
     (forall h, In h (ch_deps c) ->
        has_hash a0 h = true \/ exists c', In c' u /\ ch_hash c' = h /\ Reach a0 u c' /\ P c') -> P c) ->
  forall c, Reach a0 u c -> P c.
Proof.
  intros HP. fix IH 2. intros c Hr. destruct Hr as [c Hin Hdeps]. apply HP; [exact Hin|].
  intros h Hh. destruct (Hdeps h Hh) as [H|[c' [H1 [H2 H3]]]]; [left; exact H|right].
  exists c'. split; [exact H1|]. split; [exact H2|]. split; [exact H3|]. apply IH. exact H3.
Qed.

Lemma Reach_in a0 u c : Reach a0 u c -> In c u.
Proof. intros H. destruct H as [c Hin _]. exact Hin. Qed.

Lemma Reach_deps a0 u c : Reach a0 u c -> forall h, In h (ch_deps c) ->
  has_hash a0 h = true \/ exists c', In c' u /\ ch_hash c' = h /\ Reach a0 u c'.
Proof. intros H. destruct H as [c _ Hd]. exact Hd. Qed.

Lemma Reach_incl a u u' : incl u u' -> forall c, Reach a u c -> Reach a u' c.
Proof.
  intros Hu. refine (Reach_ind' a u _ _). intros c Hc Hd. apply Reach_intro; [exact (Hu c Hc)|].
  intros h Hh. destruct (Hd h Hh) as [H|(c' & H1 & H2 & _ & H3)]; [left; exact H|right].
  exists c'. split; [exact (Hu c' H1)|]. split; [exact H2|exact H3].
Qed.

(* where every change of [u] is applied or queued and no queued change is ready, no reachable
   change is queued *)
Lemma Reach_fixpoint a0 u a q :
  incl a0 a -> (forall c, In c u -> In c a \/ In c q) -> (forall c, In c q -> ready a c = false) ->
  forall c, Reach a0 u c -> ~ In c q.
Proof.
  intros H0 Hu Hq. refine (Reach_ind' a0 u _ _). intros c _ Hd Hc. apply Hq in Hc.
  rewrite (proj2 (ready_spec a c)) in Hc; [discriminate|]. intros h Hh.
  destruct (Hd h Hh) as [H|(c' & H1 & <- & _ & H3)]; [exact (has_hash_incl a0 a h H0 H)|]. apply has_hash_in.
  destruct (Hu c' H1) as [Hin|Hin]; [exact Hin|destruct (H3 Hin)].
Qed.

Lemma release_rect' (P : list change -> list change -> list change -> list change -> Prop) :
  (forall a q, P a q a q) ->
  (forall a q a' q', filter (ready a) q <> [] ->
     P (a ++ filter (ready a) q) (filter (fun c => negb (ready a c)) q) a' q' -> P a q a' q') ->
  forall fuel a q a' q', release fuel a q = (a', q') -> P a q a' q'.
Proof.
  intros Hb Hs fuel. induction fuel as [|f IH]; intros a q a' q' H; cbn [release] in H.
  - inversion H; subst. apply Hb.
  - destruct (filter (ready a) q) as [|x l] eqn:E.
    + inversion H; subst. apply Hb.
    + rewrite <- E in H. apply Hs; [rewrite E; discriminate|]. apply IH. exact H.
Qed.

Lemma release_perm : forall fuel a q a' q',
  release fuel a q = (a', q') -> Permutation (a ++ q) (a' ++ q').
Proof.
  apply (release_rect' (fun a q a' q' => Permutation (a ++ q) (a' ++ q'))).
  - intros a q. apply Permutation_refl.
  - intros a q a' q' _ IH. eapply Permutation_trans; [|exact IH].
    rewrite <- app_assoc. apply Permutation_app_head. apply filter_split_perm.
Qed.

Lemma release_in fuel a q a' q' :
  release fuel a q = (a', q') -> forall c, In c (a' ++ q') <-> In c (a ++ q).
Proof. intros H c. split; apply Permutation_in; [symmetry|]; exact (release_perm _ _ _ _ _ H). Qed.

Lemma release_extends : forall fuel a q a' q',
  release fuel a q = (a', q') -> exists r, a' = a ++ r.
Proof.
  apply (release_rect' (fun a q a' q' => exists r, a' = a ++ r)).
  - intros a q. exists []. symmetry. apply app_nil_r.
  - intros a q a' q' _ [r Hr]. exists (filter (ready a) q ++ r). rewrite Hr. symmetry. apply app_assoc.
Qed.

Lemma dep_closed_step a q : dep_closed a -> dep_closed (a ++ filter (ready a) q).
Proof.
  intros Hcl c Hc h Hh. rewrite has_hash_app. apply orb_true_iff. left.
  apply in_app_or in Hc. destruct Hc as [Hc|Hc].
  - exact (Hcl c Hc h Hh).
  - apply filter_In in Hc. destruct Hc as [_ Hr]. exact (proj1 (ready_spec a c) Hr h Hh).
Qed.

Lemma release_closed : forall fuel a q a' q',
  release fuel a q = (a', q') -> dep_closed a -> dep_closed a'.
Proof.
  apply (release_rect' (fun a q a' q' => dep_closed a -> dep_closed a')).
  - intros a q Hcl. exact Hcl.
  - intros a q a' q' _ IH Hcl. apply IH, dep_closed_step, Hcl.
Qed.

Lemma release_fixpoint : forall fuel a q a' q',
  (length q < fuel)%nat -> release fuel a q = (a', q') ->
  forall c, In c q' -> ready a' c = false.
Proof.
  induction fuel as [|f IH]; intros a q a' q' Hl H c Hc; [lia|]. cbn [release] in H.
  destruct (filter (ready a) q) as [|x l] eqn:E.
  - inversion H; subst. exact (filter_nil_false _ _ E c Hc).
  - rewrite <- E in H. refine (IH _ _ _ _ _ H c Hc).
    rewrite (Permutation_length (filter_split_perm (ready a) q)), app_length, E in Hl. cbn [length] in Hl. lia.
Qed.

(* [release] applies only changes reachable from [a0] through [u], when it starts from such *)
Lemma release_sound a0 u : forall fuel a q a' q', release fuel a q = (a', q') ->
  incl q u -> (forall c, In c a -> In c a0 \/ Reach a0 u c) ->
  forall c, In c a' -> In c a0 \/ Reach a0 u c.
Proof.
  apply (release_rect' (fun a q a' q' => incl q u -> (forall c, In c a -> In c a0 \/ Reach a0 u c) ->
                                         forall c, In c a' -> In c a0 \/ Reach a0 u c)).
  - intros a q _ Ha. exact Ha.
  - intros a q a' q' _ IH Hq Ha. apply IH.
    + intros c Hc. apply filter_In in Hc. apply Hq, Hc.
    + intros c Hc. apply in_app_or in Hc. destruct Hc as [Hc|Hc]; [exact (Ha c Hc)|right].
      apply filter_In in Hc. destruct Hc as [Hc Hr]. apply Reach_intro; [exact (Hq c Hc)|]. intros h Hh.
      apply (proj1 (ready_spec a c) Hr), has_hash_spec in Hh. destruct Hh as (c' & Hc' & <-).
      destruct (Ha c' Hc') as [H|H]; [left; apply has_hash_in, H|right].
      exists c'. split; [exact (Reach_in _ _ _ H)|]. split; [reflexivity|exact H].
Qed.

Lemma release_complete : forall fuel a q a' q',
  (length q < fuel)%nat -> release fuel a q = (a', q') ->
  forall c, Reach a q c -> In c a'.
Proof.
  intros fuel a q a' q' Hl H c Hr.
  assert (Hin : forall x, In x q -> In x a' \/ In x q').
  { intros x Hx. apply in_app_or, (release_in _ _ _ _ _ H), in_or_app. right. exact Hx. }
  destruct (Hin c (Reach_in _ _ _ Hr)) as [Hc|Hc]; [exact Hc|].
  exfalso. refine (Reach_fixpoint a q a' q' _ Hin (release_fixpoint _ _ _ _ _ Hl H) c Hr Hc).
  destruct (release_extends _ _ _ _ _ H) as [r ->]. apply incl_appl, incl_refl.
Qed.

Theorem release_char_gen : forall fuel a q a' q',
  (length q < fuel)%nat -> release fuel a q = (a', q') ->
  forall c, In c a' <-> In c a \/ (In c q /\ Reach a q c).
Proof.
  intros fuel a q a' q' Hl H c. split.
  - intros Hc. destruct (release_sound a q _ _ _ _ _ H (incl_refl q) (fun x Hx => or_introl Hx) c Hc) as [Ha|Hr]; [left; exact Ha|right].
    split; [exact (Reach_in _ _ _ Hr)|exact Hr].
  - intros [Hc|[_ Hr]].
    + destruct (release_extends _ _ _ _ _ H) as [r Hr]. rewrite Hr. apply in_or_app. left. exact Hc.
    + exact (release_complete _ _ _ _ _ Hl H c Hr).
Qed.

(* For a queued change, "released" and "reachable" differ only when it is applied already
   without being reachable ([release_char_needs_side_condition] is such a state): [dep_closed a],
   the invariant of [receive], excludes that, and so does disjointness of [a] and [q]. *)
Lemma release_char_queued fuel a q a' q' c :
  (length q < fuel)%nat -> release fuel a q = (a', q') -> In c q ->
  (In c a -> Reach a q c) -> (In c a' <-> Reach a q c).
Proof.
  intros Hl H Hq Ha. rewrite (release_char_gen _ _ _ _ _ Hl H c). split.
  - intros [Hc|[_ Hr]]; [exact (Ha Hc)|exact Hr].
  - intros Hr. right. split; assumption.
Qed.

Theorem release_char : forall fuel a q a' q',
  (length q < fuel)%nat -> hash_inj (a ++ q) -> dep_closed a ->
  release fuel a q = (a', q') -> forall c, In c q -> (In c a' <-> Reach a q c).
Proof.
  intros fuel a q a' q' Hl _ Hcl H c Hq. apply (release_char_queued _ _ _ _ _ _ Hl H Hq).
  intros Hc. apply Reach_intro; [exact Hq|]. intros h Hh. left. exact (Hcl c Hc h Hh).
Qed.

Theorem release_char_disjoint : forall fuel a q a' q',
  (length q < fuel)%nat -> (forall c, In c a -> ~ In c q) ->
  release fuel a q = (a', q') -> forall c, In c q -> (In c a' <-> Reach a q c).
Proof.
  intros fuel a q a' q' Hl Hdis H c Hq. apply (release_char_queued _ _ _ _ _ _ Hl H Hq).
  intros Hc. destruct (Hdis c Hc Hq).
Qed.

(* C38: (actor, seq) pairs stay unique over applied ++ queue *)
Definition actor_seq_unique (cs : list change) : Prop :=
  forall c c', In c cs -> In c' cs -> ch_actor c = ch_actor c' -> ch_seq c = ch_seq c' -> ch_hash c = ch_hash c'.

Lemma has_actor_seq_spec l c :
  has_actor_seq l c = true <-> exists c', In c' l /\ ch_actor c' = ch_actor c /\ ch_seq c' = ch_seq c.
Proof.
  unfold has_actor_seq. rewrite existsb_exists.
  setoid_rewrite andb_true_iff. setoid_rewrite same_actor_spec. setoid_rewrite N.eqb_eq. reflexivity.
Qed.

Lemma has_actor_seq_false l c x : has_actor_seq l c = false ->
  In x l -> ch_actor x = ch_actor c -> ch_seq x = ch_seq c -> False.
Proof.
  intros E Hx Ha Hs. rewrite (proj2 (has_actor_seq_spec l c)) in E; [discriminate|]. exists x. auto.
Qed.

Lemma actor_seq_unique_incl l l' : incl l l' -> actor_seq_unique l' -> actor_seq_unique l.
Proof. intros Hi H c c' Hc Hc'. apply H; apply Hi; assumption. Qed.

Lemma actor_seq_unique_snoc l c : actor_seq_unique l ->
  (forall x, In x l -> ch_actor x = ch_actor c -> ch_seq x = ch_seq c -> False) -> actor_seq_unique (l ++ [c]).
Proof.
  intros Hl Hc x y Hx Hy Ha Hs.
  apply in_app_or in Hx. apply in_app_or in Hy. destruct Hx as [Hx|[<-|[]]]; destruct Hy as [Hy|[<-|[]]].
  - apply Hl; assumption.
  - destruct (Hc x Hx Ha Hs).
  - destruct (Hc y Hy (eq_sym Ha) (eq_sym Hs)).
  - reflexivity.
Qed.

(* [batch_push] extends the batch one change at a time, each having passed its four checks:
   what every such extension preserves holds of the result *)
Lemma batch_push_ind d (P : list change -> Prop) : forall cs b b', batch_push d b cs = Ok b' ->
  (forall b c, In c cs -> seq_for_actor (applied d) (ch_actor c) < ch_seq c -> has_actor_seq (queue d) c = false ->
     has_hash b (ch_hash c) = false -> has_actor_seq b c = false -> P b -> P (b ++ [c])) ->
  P b -> P b'.
Proof.
  induction cs as [|c t IH]; intros b b' H Hstep Hb; cbn [batch_push] in H; [inversion H; subst; exact Hb|].
  destruct (ch_seq c <=? seq_for_actor (applied d) (ch_actor c)) eqn:E1; [discriminate|].
  destruct (has_actor_seq (queue d) c) eqn:E2; [discriminate|].
  pose proof (fun b x Hx => Hstep b x (or_intror Hx)) as Ht.
  destruct (has_hash b (ch_hash c)) eqn:E3; [exact (IH b b' H Ht Hb)|].
  destruct (has_actor_seq b c) eqn:E4; [discriminate|]. apply (IH (b ++ [c]) b' H Ht).
  apply Hstep; [left; reflexivity|lia|assumption..].
Qed.

Lemma batch_push_covers d : forall cs b b', batch_push d b cs = Ok b' ->
  forall h, has_hash b h = true \/ In h (hashes cs) -> has_hash b' h = true.
Proof.
  induction cs as [|c t IH]; intros b b' H h Hh; cbn [batch_push] in H.
  - inversion H; subst. destruct Hh as [Hh|[]]. exact Hh.
  - destruct (ch_seq c <=? seq_for_actor (applied d) (ch_actor c)); [discriminate|].
    destruct (has_actor_seq (queue d) c); [discriminate|].
    destruct (has_hash b (ch_hash c)) eqn:E3.
    + apply (IH b b' H). destruct Hh as [Hh|[<-|Hh]]; auto.
    + destruct (has_actor_seq b c); [discriminate|]. apply (IH (b ++ [c]) b' H). rewrite has_hash_app.
      destruct Hh as [->|[<-|Hh]]; [auto|left; cbn; rewrite N.eqb_refl; apply orb_true_r|auto].
Qed.

Definition fresh_of (d : doc) (cs : list change) : list change :=
  filter (fun c => negb (has_hash (applied d) (ch_hash c) || has_hash (queue d) (ch_hash c))) cs.

(* a successful [receive]: the accepted batch, and the release over the queue extended by it *)
Lemma receive_inv d cs d' : receive d cs = Ok d' ->
  exists batch, batch_push d [] (fresh_of d cs) = Ok batch /\
    release (S (length (queue d ++ batch))) (applied d) (queue d ++ batch) = (applied d', queue d').
Proof.
  unfold receive. fold (fresh_of d cs). intros H. apply bind_ok in H. destruct H as (batch & Hb & H).
  destruct (release _ (applied d) (queue d ++ batch)) as [a' q'] eqn:Er. inversion H; subst. exists batch. auto.
Qed.

Theorem receive_closed : forall d cs d',
  dep_closed (applied d) -> receive d cs = Ok d' -> dep_closed (applied d').
Proof.
  intros d cs d' Hcl H. destruct (receive_inv _ _ _ H) as (batch & _ & Hr).
  exact (release_closed _ _ _ _ _ Hr Hcl).
Qed.

Theorem receive_queue_not_ready : forall d cs d',
  receive d cs = Ok d' -> forall c, In c (queue d') -> ready (applied d') c = false.
Proof.
  intros d cs d' H c Hc. destruct (receive_inv _ _ _ H) as (batch & _ & Hr).
  refine (release_fixpoint _ _ _ _ _ _ Hr c Hc). lia.
Qed.

Theorem receive_keeps : forall d cs d', receive d cs = Ok d' ->
    incl (applied d) (applied d') /\ incl (applied d ++ queue d) (applied d' ++ queue d') /\
    incl (applied d' ++ queue d') (applied d ++ queue d ++ cs) /\
    (forall c, In c cs -> has_hash (applied d') (ch_hash c) = true \/ has_hash (queue d') (ch_hash c) = true).
Proof.
  intros d cs d' H. destruct (receive_inv _ _ _ H) as (batch & Hb & Hr).
  assert (Hi : incl batch (fresh_of d cs)).
  { apply (batch_push_ind d (fun b => incl b (fresh_of d cs)) _ _ _ Hb); [|apply incl_nil_l].
    intros b c Hc _ _ _ _ Hi. exact (incl_app Hi (incl_cons Hc (incl_nil_l _))). }
  pose proof (release_in _ _ _ _ _ Hr) as K. rewrite app_assoc in K.
  split; [|split; [|split]].
  - destruct (release_extends _ _ _ _ _ Hr) as [r ->]. apply incl_appl, incl_refl.
  - intros c Hc. apply K, in_or_app. left. exact Hc.
  - intros c Hc. apply K in Hc. rewrite !in_app_iff in *. destruct Hc as [Hc|Hc]; [tauto|].
    apply Hi, filter_In in Hc. tauto.
  - intros c Hc. apply orb_true_iff. rewrite <- has_hash_app.
    apply (has_hash_incl ((applied d ++ queue d) ++ batch)); [intros x; apply K|]. rewrite !has_hash_app.
    destruct (has_hash (applied d) (ch_hash c) || has_hash (queue d) (ch_hash c)) eqn:E; [reflexivity|].
    apply (batch_push_covers d _ _ _ Hb). right. apply in_map, filter_In. rewrite E. auto.
Qed.

Lemma receive_within u d cs d' : receive d cs = Ok d' ->
  incl (applied d ++ queue d) u -> incl cs u -> incl (applied d' ++ queue d') u.
Proof.
  intros H Hd Hc. eapply incl_tran; [apply (receive_keeps _ _ _ H)|]. rewrite app_assoc. apply incl_app; assumption.
Qed.

Fixpoint run (d : doc) (batches : list (list change)) : res doc :=
  match batches with [] => Ok d | b :: t => let* d' := receive d b in run d' t end.

(* state of a document after the set [D] has been delivered *)
Definition run_inv (D : list change) (d : doc) : Prop :=
  incl (applied d ++ queue d) D /\
  (forall c, In c D -> In c (applied d) \/ In c (queue d)) /\
  (forall c, In c (applied d) -> Reach [] D c) /\
  (forall c, In c (queue d) -> ~ Reach [] D c).

Lemma run_inv_empty : run_inv [] empty_doc.
Proof.
  unfold run_inv, empty_doc; cbn [applied queue app].
  split; [apply incl_refl|]. split; [intros c []|]. split; intros c [].
Qed.

Lemma run_inv_char D d : run_inv D d -> forall c,
  (In c (applied d) <-> (In c D /\ Reach [] D c)) /\ (In c (queue d) <-> (In c D /\ ~ Reach [] D c)).
Proof.
  intros [HS [HC [HA HQ]]] c. split; split.
  - intros Hc. split; [apply HS, in_or_app; left; exact Hc|exact (HA c Hc)].
  - intros [Hc Hr]. destruct (HC c Hc) as [H|H]; [exact H|]. destruct (HQ c H Hr).
  - intros Hc. split; [apply HS, in_or_app; right; exact Hc|exact (HQ c Hc)].
  - intros [Hc Hr]. destruct (HC c Hc) as [H|H]; [|exact H]. destruct (Hr (HA c H)).
Qed.

Lemma receive_run_inv U D d b d' :
  hash_inj U -> incl (D ++ b) U -> run_inv D d -> receive d b = Ok d' -> run_inv (D ++ b) d'.
Proof.
  intros Hinj HU [HS [HC [HA HQ]]] H.
  destruct (receive_keeps _ _ _ H) as [_ [K2 [_ K4]]].
  destruct (receive_inv _ _ _ H) as (batch & _ & Hrel).
  assert (HS' : incl (applied d' ++ queue d') (D ++ b)).
  { apply (receive_within _ _ _ _ H); [apply incl_appl, HS|apply incl_appr, incl_refl]. }
  assert (HC' : forall c, In c (D ++ b) -> In c (applied d') \/ In c (queue d')).
  { intros c Hc. apply in_app_or in Hc. destruct Hc as [Hc|Hc].
    - apply in_app_or. apply K2. apply in_or_app. exact (HC c Hc).
    - apply in_app_or, (has_hash_mem U _ c Hinj); [exact (incl_tran HS' HU)|apply HU, in_or_app; right; exact Hc|].
      rewrite has_hash_app. apply orb_true_iff. exact (K4 c Hc). }
  split; [exact HS'|]. split; [exact HC'|]. split.
  - intros c Hc. destruct (release_sound [] (D ++ b) _ _ _ _ _ Hrel) with (c := c) as [[]|Hr]; [| |exact Hc|exact Hr].
    + intros x Hx. apply HS', (release_in _ _ _ _ _ Hrel), in_or_app. right. exact Hx.
    + intros x Hx. right. apply (Reach_incl [] D); [apply incl_appl, incl_refl|exact (HA x Hx)].
  - intros c Hc Hr. exact (Reach_fixpoint [] (D ++ b) _ _ (incl_nil_l _) HC' (receive_queue_not_ready _ _ _ H) c Hr Hc).
Qed.

(* a relation between the delivered set and the document that every accepted delivery
   inside the universe [u] preserves holds after a run inside [u] *)
Lemma run_invariant u (P : list change -> doc -> Prop) :
  (forall D d b d', incl (D ++ b) u -> P D d -> receive d b = Ok d' -> P (D ++ b) d') ->
  forall batches D d d', incl (D ++ concat batches) u -> P D d -> run d batches = Ok d' ->
  P (D ++ concat batches) d'.
Proof.
  intros Hstep. induction batches as [|b t IH]; intros D d d' Hu HP H; cbn [run concat] in *.
  - inversion H; subst. rewrite app_nil_r. exact HP.
  - apply bind_ok in H. destruct H as (d1 & E & H). rewrite app_assoc in *.
    exact (IH _ _ _ Hu (Hstep _ _ _ _ (proj1 (incl_app_inv _ _ Hu)) HP E) H).
Qed.

Lemma run_empty_inv batches d :
  hash_inj (concat batches) -> run empty_doc batches = Ok d -> run_inv (concat batches) d.
Proof.
  intros Hinj H.
  exact (run_invariant _ run_inv (fun D d0 b d1 => receive_run_inv _ D d0 b d1 Hinj)
           batches [] empty_doc d (incl_refl _) run_inv_empty H).
Qed.

Theorem run_applied_char : forall batches d,
  hash_inj (concat batches) -> run empty_doc batches = Ok d ->
  forall c, In c (applied d) <-> (In c (concat batches) /\ Reach [] (concat batches) c).
Proof. intros batches d Hinj H c. exact (proj1 (run_inv_char _ _ (run_empty_inv _ _ Hinj H) c)). Qed.

Theorem run_queue_char : forall batches d,
  hash_inj (concat batches) -> run empty_doc batches = Ok d ->
  forall c, In c (queue d) <-> (In c (concat batches) /\ ~ Reach [] (concat batches) c).
Proof. intros batches d Hinj H c. exact (proj2 (run_inv_char _ _ (run_empty_inv _ _ Hinj H) c)). Qed.

Lemma Reach_same_set a u u' : (forall c, In c u <-> In c u') -> forall c, Reach a u c <-> Reach a u' c.
Proof.
  intros Hs c. split; apply Reach_incl; intros x Hx; apply Hs; exact Hx.
Qed.

Theorem run_order_independent : forall b1 b2 d1 d2,
  hash_inj (concat b1 ++ concat b2) ->
  (forall c, In c (concat b1) <-> In c (concat b2)) ->
  run empty_doc b1 = Ok d1 -> run empty_doc b2 = Ok d2 ->
  (forall c, In c (applied d1) <-> In c (applied d2)) /\ (forall c, In c (queue d1) <-> In c (queue d2)).
Proof.
  intros b1 b2 d1 d2 Hinj Hs H1 H2.
  assert (Hi1 : hash_inj (concat b1)) by (apply (hash_inj_incl _ _ (incl_appl _ (incl_refl _)) Hinj)).
  assert (Hi2 : hash_inj (concat b2)) by (apply (hash_inj_incl _ _ (incl_appr _ (incl_refl _)) Hinj)).
  split; intros c.
  - rewrite (run_applied_char _ _ Hi1 H1 c), (run_applied_char _ _ Hi2 H2 c).
    rewrite (Hs c), (Reach_same_set [] _ _ Hs c). reflexivity.
  - rewrite (run_queue_char _ _ Hi1 H1 c), (run_queue_char _ _ Hi2 H2 c).
    rewrite (Hs c), (Reach_same_set [] _ _ Hs c). reflexivity.
Qed.

(* [p] is a transitive dependency of [c] inside the universe [u] *)
Inductive tdep (u : list change) : change -> change -> Prop :=
| tdep_one c p : In p u -> In (ch_hash p) (ch_deps c) -> tdep u c p
| tdep_more c m p : In m u -> In (ch_hash m) (ch_deps c) -> tdep u m p -> tdep u c p.

(* every change of the universe has seq <= 1 or has its actor's previous change among
   its transitive dependencies *)
Definition seq_chain (u : list change) : Prop :=
  forall c, In c u -> ch_seq c <= 1 \/
    exists p, tdep u c p /\ ch_actor p = ch_actor c /\ ch_seq p + 1 = ch_seq c.

(* no applied change has a seq above the number of applied changes of its actor *)
Definition seq_bounded (a : list change) : Prop :=
  forall c, In c a -> ch_seq c <= seq_for_actor a (ch_actor c).

Definition Inv (u : list change) (d : doc) : Prop :=
  incl (applied d ++ queue d) u /\ dep_closed (applied d) /\ seq_bounded (applied d) /\
  (forall c, In c (applied d ++ queue d) -> 1 <= ch_seq c) /\
  actor_seq_unique (applied d ++ queue d).

Lemma Inv_empty u : Inv u empty_doc.
Proof.
  unfold Inv, empty_doc; cbn [applied queue app].
  split; [intros c []|]. split; [intros c []|]. split; [intros c []|]. split; [intros c []|intros c c' []].
Qed.

Lemma seq_for_actor_app a b x : seq_for_actor (a ++ b) x = seq_for_actor a x + seq_for_actor b x.
Proof. unfold seq_for_actor. rewrite filter_app, app_length. lia. Qed.

Lemma seq_for_actor_in l c : In c l -> 1 <= seq_for_actor l (ch_actor c).
Proof.
  intros Hc. unfold seq_for_actor.
  assert (H : In c (filter (fun c' => same_actor (ch_actor c') (ch_actor c)) l)).
  { apply filter_In. split; [exact Hc|apply same_actor_spec; reflexivity]. }
  destruct (filter _ l); [destruct H|cbn [length]; lia].
Qed.

Lemma tdep_closed u a : hash_inj u -> incl a u -> dep_closed a ->
  forall c p, tdep u c p -> (forall h, In h (ch_deps c) -> has_hash a h = true) -> In p a.
Proof.
  intros Hinj Hi Hcl.
  assert (Hone : forall c m, In m u -> In (ch_hash m) (ch_deps c) ->
            (forall h, In h (ch_deps c) -> has_hash a h = true) -> In m a).
  { intros c m Hm Hh Hd. apply (has_hash_mem u a m Hinj Hi Hm), Hd, Hh. }
  intros c p Ht. induction Ht as [c p Hp Hh|c m p Hm Hh Ht IH]; intros Hd.
  - exact (Hone c p Hp Hh Hd).
  - apply IH. exact (Hcl m (Hone c m Hm Hh Hd)).
Qed.

Lemma seq_bounded_step u a q :
  hash_inj u -> seq_chain u -> incl a u -> incl q u -> dep_closed a -> seq_bounded a ->
  seq_bounded (a ++ filter (ready a) q).
Proof.
  intros Hinj Hch Hau Hqu Hcl Hb c Hc. rewrite seq_for_actor_app.
  apply in_app_or in Hc. destruct Hc as [Hc|Hc].
  - specialize (Hb c Hc). lia.
  - pose proof (seq_for_actor_in _ _ Hc) as H1.
    apply filter_In in Hc. destruct Hc as [Hq Hr].
    destruct (Hch c (Hqu c Hq)) as [Hle|[p [Ht [Ha Hs]]]]; [lia|].
    pose proof (tdep_closed u a Hinj Hau Hcl c p Ht (proj1 (ready_spec a c) Hr)) as Hp.
    specialize (Hb p Hp). rewrite Ha in Hb. lia.
Qed.

Lemma release_seq_bounded u : hash_inj u -> seq_chain u ->
  forall fuel a q a' q', release fuel a q = (a', q') ->
  incl a u -> incl q u -> dep_closed a -> seq_bounded a -> seq_bounded a'.
Proof.
  intros Hinj Hch.
  apply (release_rect' (fun a q a' q' => incl a u -> incl q u -> dep_closed a -> seq_bounded a -> seq_bounded a')).
  - intros a q _ _ _ Hb. exact Hb.
  - intros a q a' q' _ IH Ha Hq Hcl Hb. apply IH.
    + apply incl_app; [exact Ha|exact (incl_tran (incl_filter _ q) Hq)].
    + exact (incl_tran (incl_filter _ q) Hq).
    + apply dep_closed_step. exact Hcl.
    + apply (seq_bounded_step u); assumption.
Qed.

Theorem receive_actor_seq_unique : forall u d cs d',
  hash_inj u -> seq_chain u -> incl cs u ->
  Inv u d -> receive d cs = Ok d' -> Inv u d'.
Proof.
  intros u d cs d' Hinj Hch Hcs [HI [Hcl [Hb [Hpos Hu]]]] H.
  destruct (receive_inv _ _ _ H) as (batch & Hbp & Hrel).
  pose proof (receive_within u _ _ _ H HI Hcs) as HI'.
  pose proof (release_in _ _ _ _ _ Hrel) as K. rewrite app_assoc in K.
  (* every change pushed has a seq above its actor's applied ones and an (actor, seq) that no held
     change and no change of the batch has *)
  assert (HP : (forall c, In c ((applied d ++ queue d) ++ batch) -> 1 <= ch_seq c) /\
               actor_seq_unique ((applied d ++ queue d) ++ batch)).
  { pattern batch. apply (batch_push_ind d _ _ _ _ Hbp); cbv beta; [|rewrite app_nil_r; auto].
    intros b c _ Hlt E2 _ E4 [Hp1 Hu1]. rewrite app_assoc. split.
    - intros x Hx. apply in_app_or in Hx. destruct Hx as [Hx|[<-|[]]]; [exact (Hp1 x Hx)|lia].
    - apply actor_seq_unique_snoc; [exact Hu1|]. intros x Hx Ha Hs.
      rewrite !in_app_iff in Hx. destruct Hx as [[Hx|Hx]|Hx].
      + specialize (Hb x Hx). rewrite Ha in Hb. lia.
      + exact (has_actor_seq_false _ _ _ E2 Hx Ha Hs).
      + exact (has_actor_seq_false _ _ _ E4 Hx Ha Hs). }
  split; [exact HI'|]. split; [exact (receive_closed _ _ _ Hcl H)|]. split; [|split].
  - assert (Hall : incl (applied d ++ queue d ++ batch) u).
    { intros c Hc. apply HI', (release_in _ _ _ _ _ Hrel), Hc. }
    apply incl_app_inv in Hall. destruct Hall as [Ha Hq].
    exact (release_seq_bounded u Hinj Hch _ _ _ _ _ Hrel Ha Hq Hcl Hb).
  - intros c Hc. apply HP, K, Hc.
  - apply (actor_seq_unique_incl _ ((applied d ++ queue d) ++ batch)); [intros c; apply K|apply HP].
Qed.

Corollary run_actor_seq_unique : forall u batches d,
  hash_inj u -> seq_chain u -> incl (concat batches) u ->
  run empty_doc batches = Ok d -> actor_seq_unique (applied d ++ queue d).
Proof.
  intros u batches d Hinj Hch Hi H. assert (HI : Inv u d); [|apply HI].
  refine (run_invariant u (fun _ d => Inv u d) _ batches [] empty_doc d Hi (Inv_empty u) H).
  intros D d0 b d1 HU. exact (receive_actor_seq_unique u d0 b d1 Hinj Hch (proj2 (incl_app_inv _ _ HU))).
Qed.

(* the hypotheses are satisfiable, the side conditions are needed *)
Module Examples.
  (* actor [1]: cA (seq 1) <- cB (seq 2) <- ... <- cE (seq 3, reaching cB only through cC);
     actor [2]: cC (seq 1, depends on cB) <- cD (seq 2, also depends on the unknown hash 9) *)
  Definition cA := mkChange 1 [1] 1 1 [] [].
  Definition cB := mkChange 2 [1] 2 2 [1] [].
  Definition cC := mkChange 3 [2] 1 1 [2] [].
  Definition cD := mkChange 4 [2] 2 2 [3; 9] [].
  Definition cE := mkChange 5 [1] 3 3 [3] [].
  Definition univ := [cA; cB; cC; cD; cE].
  Definition run1 := [[cE; cC]; [cD; cB]; [cA; cC]].
  Definition run2 := [[cA; cB; cC; cD; cE]].

  Example univ_hash_inj : hash_inj univ.
  Proof. apply distinct_hash_inj. reflexivity. Qed.

  Example run1_ok : run empty_doc run1 = Ok (mkDoc [cA; cB; cC; cE] [cD]).
  Proof. vm_compute. reflexivity. Qed.
  Example run2_ok : run empty_doc run2 = Ok (mkDoc [cA; cB; cC; cE] [cD]).
  Proof. vm_compute. reflexivity. Qed.

  Lemma run12_incl : incl (concat run1 ++ concat run2) univ.
  Proof.
    apply incl_Forall_in_iff. unfold univ. cbn [concat run1 run2 app In].
    repeat (apply Forall_cons; [tauto|]). apply Forall_nil.
  Qed.

  Example run12_hash_inj : hash_inj (concat run1 ++ concat run2).
  Proof. exact (hash_inj_incl _ _ run12_incl univ_hash_inj). Qed.

  Example run1_hash_inj : hash_inj (concat run1).
  Proof. exact (hash_inj_incl _ _ (incl_appl _ (incl_refl _)) run12_hash_inj). Qed.

  Example run12_same_set : forall c, In c (concat run1) <-> In c (concat run2).
  Proof.
    intros c. split; intros Hc; vm_compute in Hc; vm_compute;
      repeat (destruct Hc as [Hc|Hc]; [subst c; tauto|]); destruct Hc.
  Qed.

  Example cE_reachable : Reach [] (concat run1) cE.
  Proof. apply (run_applied_char run1 _ run1_hash_inj run1_ok). vm_compute. tauto. Qed.
  Example cD_not_reachable : ~ Reach [] (concat run1) cD.
  Proof. apply (run_queue_char run1 _ run1_hash_inj run1_ok). vm_compute. tauto. Qed.
  Example run12_agree :
    (forall c, In c [cA; cB; cC; cE] <-> In c [cA; cB; cC; cE]) /\ (forall c, In c [cD] <-> In c [cD]).
  Proof. exact (run_order_independent run1 run2 _ _ run12_hash_inj run12_same_set run1_ok run2_ok). Qed.

  Example release_ok : release 3 [] [cB; cA] = ([cA; cB], []).
  Proof. vm_compute. reflexivity. Qed.
  Example release_hyps : (length [cB; cA] < 3)%nat /\ hash_inj ([] ++ [cB; cA]) /\ dep_closed [].
  Proof.
    split; [cbn; lia|]. split; [|intros c []]. apply distinct_hash_inj. reflexivity.
  Qed.

  Example univ_seq_chain : seq_chain univ.
  Proof.
    intros c Hc. unfold univ in Hc. cbn [In] in Hc.
    destruct Hc as [Hc|[Hc|[Hc|[Hc|[Hc|[]]]]]]; subst c.
    - left. vm_compute. discriminate.
    - right. exists cA. split; [apply tdep_one; vm_compute; tauto|]. split; reflexivity.
    - left. vm_compute. discriminate.
    - right. exists cC. split; [apply tdep_one; vm_compute; tauto|]. split; reflexivity.
    - right. exists cB. split; [|split; reflexivity].
      apply (tdep_more univ cE cC cB); [vm_compute; tauto|vm_compute; tauto|].
      apply tdep_one; vm_compute; tauto.
  Qed.
  Example run1_actor_seq_unique : actor_seq_unique ([cA; cB; cC; cE] ++ [cD]).
  Proof.
    apply (run_actor_seq_unique univ run1 (mkDoc [cA; cB; cC; cE] [cD]) univ_hash_inj univ_seq_chain);
      [|exact run1_ok].
    intros c Hc. apply run12_incl, in_or_app. left. exact Hc.
  Qed.

  (* applied, queued, and lacking a dependency *)
  Definition cX := mkChange 7 [3] 1 1 [99] [].
  Example release_char_needs_side_condition :
    (length [cX] < 2)%nat /\ hash_inj ([cX] ++ [cX]) /\ release 2 [cX] [cX] = ([cX], [cX]) /\
    In cX [cX] /\ In cX [cX] /\ ~ Reach [cX] [cX] cX.
  Proof.
    split; [cbn; lia|]. split.
    { intros c c' Hc Hc' _. cbn [app In] in Hc, Hc'.
      destruct Hc as [Hc|[Hc|[]]]; destruct Hc' as [Hc'|[Hc'|[]]]; congruence. }
    split; [vm_compute; reflexivity|]. split; [left; reflexivity|]. split; [left; reflexivity|].
    intros Hr. destruct (Reach_deps _ _ _ Hr 99 (or_introl eq_refl)) as [H|[c' [Hc' [He _]]]].
    - vm_compute in H. discriminate H.
    - destruct Hc' as [Hc'|[]]. subst c'. vm_compute in He. discriminate He.
  Qed.

  (* C38 does not hold of the model in general: [seq_for_actor] counts applied changes, so
     a first change with seq 5 is accepted (contiguity breaks: seq 5 with one applied change),
     and a second, different change with the same (actor, seq) passes every check. *)
  Definition x1 := mkChange 1 [7] 5 1 [] [].
  Definition x2 := mkChange 2 [7] 5 1 [] [].
  Example contiguity_not_preserved :
    receive empty_doc [x1] = Ok (mkDoc [x1] []) /\ ~ seq_bounded [x1].
  Proof.
    split; [vm_compute; reflexivity|]. intros H. specialize (H x1 (or_introl eq_refl)).
    vm_compute in H. apply H. reflexivity.
  Qed.
  Example actor_seq_not_preserved :
    run empty_doc [[x1]; [x2]] = Ok (mkDoc [x1; x2] []) /\
    hash_inj [x1; x2] /\ actor_seq_unique (applied empty_doc ++ queue empty_doc) /\
    ~ actor_seq_unique ([x1; x2] ++ []).
  Proof.
    split; [vm_compute; reflexivity|]. split.
    { apply distinct_hash_inj. reflexivity. }
    split; [intros c c' []|]. intros H.
    specialize (H x1 x2 (or_introl eq_refl) (or_intror (or_introl eq_refl)) eq_refl eq_refl).
    discriminate H.
  Qed.
  (* within one batch the duplicate is caught *)
  Example same_batch_rejected : receive empty_doc [x1; x2] = Err.
  Proof. vm_compute. reflexivity. Qed.
End Examples.

Print Assumptions release_char_gen.
Print Assumptions release_char.
Print Assumptions receive_closed.
Print Assumptions receive_queue_not_ready.
Print Assumptions receive_keeps.
Print Assumptions receive_actor_seq_unique.
Print Assumptions run_applied_char.
Print Assumptions run_queue_char.
Print Assumptions run_order_independent.
