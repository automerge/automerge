(* Crdt/TextProofs.v — text indexes are measured in the document's encoding (C24), over the model
   of Crdt/Local.v: widths are additive, the length of a text is the width of its string, the element
   an index resolves to is the one whose character span covers that index, an insert lands on an
   element boundary. *)
From AM Require Import Base.Prelude Base.Order Crdt.Types Crdt.Interp Crdt.Local Crdt.LocalProofs.
Local Open Scope N_scope.

Lemma str_width_app e a b : str_width e (a ++ b) = str_width e a + str_width e b.
Proof. induction a as [|c a IH]; cbn [app str_width]; [reflexivity|]. rewrite IH. lia. Qed.

(* [cp_width] is defined on scalar values: surrogates cannot occur in a Rust char *)
Lemma cp_width_bounds e c : 1 <= cp_width e c <= 4.
Proof.
  unfold cp_width. destruct e; [lia| |].
  - destruct (c <? 128); [lia|]. destruct (c <? 2048); [lia|]. destruct (c <? 65536); lia.
  - destruct (c <? 65536); lia.
Qed.

Lemma width_code_points s : str_width EncCP s = N.of_nat (length s).
Proof. induction s as [|c s IH]; [reflexivity|]. cbn [str_width length]. rewrite IH, Nat2N.inj_succ. cbn. lia. Qed.

(* the text of a sequence of visible elements and its length as the read API computes it *)
Definition text_str (els : list (opid * regobs)) : list N := flat_map (fun er => elem_text (snd er)) els.
Definition text_len (e : enc) (els : list (opid * regobs)) : N :=
  fold_right (fun er s => elem_w e OText (snd er) + s) 0 els.

Theorem text_len_eq_width e els : text_len e els = str_width e (text_str els).
Proof.
  induction els as [|[el r] t IH]; [reflexivity|].
  cbn [text_len text_str fold_right flat_map snd]. rewrite str_width_app. fold (text_len e t). fold (text_str t).
  rewrite IH. reflexivity.
Qed.

Lemma text_of_seq ops obj id :
  text_of (mkO id OText (EL (map snd (seq_elems ops obj)))) = text_str (seq_elems ops obj).
Proof.
  unfold text_of, text_str. cbn [oo_entries]. induction (seq_elems ops obj) as [|x l IH]; [reflexivity|].
  cbn [map flat_map]. rewrite IH. reflexivity.
Qed.

Lemma text_len_app e a b : text_len e (a ++ b) = text_len e a + text_len e b.
Proof. rewrite !text_len_eq_width. unfold text_str. rewrite flat_map_app. apply str_width_app. Qed.

Theorem seek_in_encoding e els idx el r s wd p :
  seek (elem_w e OText) els idx 0 0 = Some (el, r, s, wd, p) ->
  nth_error els p = Some (el, r) /\
  s = str_width e (text_str (firstn p els)) /\ wd = str_width e (elem_text r) /\ s <= idx < s + wd.
Proof.
  intros H. destruct (seek_spec _ _ _ _ _ _ _ _ _ _ H) as (k & -> & Hk & Hs & Hw & Hlt & Hle).
  rewrite <- text_len_eq_width. repeat split; try assumption. apply Hle, N.le_0_l.
Qed.

Theorem seek_defined_iff e els idx :
  seek (elem_w e OText) els idx 0 0 = None <-> str_width e (text_str els) <= idx.
Proof.
  rewrite <- text_len_eq_width. rewrite (seek_none_iff (elem_w e OText) els idx 0 0 (N.le_0_l _)).
  unfold text_len. lia.
Qed.

Lemma firstn_S_nth {A} (l : list A) p x : nth_error l p = Some x -> firstn (S p) l = firstn p l ++ [x].
Proof.
  revert p. induction l as [|y l IH]; intros [|p] H; try discriminate.
  - inversion H. reflexivity.
  - cbn [firstn app]. rewrite <- (IH p H). reflexivity.
Qed.

(* an insert lands on an element boundary at or after the requested index, and reports that boundary *)
Theorem insert_index_in_encoding e ops obj idx ref idx' j :
  query_insert e OText ops obj idx = Some (ref, idx', j) ->
  idx' = str_width e (text_str (firstn j (seq_elems ops obj))) /\ idx <= idx' /\
  (j <= length (seq_elems ops obj))%nat.
Proof.
  unfold query_insert. destruct (idx =? 0) eqn:I0.
  - apply N.eqb_eq in I0. intros H. inversion H; subst. cbn. repeat split; lia.
  - apply N.eqb_neq in I0.
    destruct (seek (elem_w e OText) (seq_elems ops obj) (idx - 1) 0 0) as [[[[[el r] s] wd] p]|] eqn:Sk; [|discriminate].
    intros H. injection H as <- <- <-.
    destruct (seek_in_encoding _ _ _ _ _ _ _ _ Sk) as (Hn & Hs & Hw & Hr).
    assert (Lt : (p < length (seq_elems ops obj))%nat) by (apply nth_error_Some; congruence).
    split; [|split; [lia|lia]].
    rewrite <- text_len_eq_width.
    rewrite (firstn_S_nth _ _ _ Hn), text_len_app, text_len_eq_width, <- Hs. cbn. lia.
Qed.

Theorem insert_rejected_iff e ops obj idx :
  query_insert e OText ops obj idx = None <-> str_width e (text_str (seq_elems ops obj)) < idx.
Proof.
  unfold query_insert. destruct (idx =? 0) eqn:I0.
  - apply N.eqb_eq in I0. split; [discriminate|lia].
  - apply N.eqb_neq in I0. transitivity (seek (elem_w e OText) (seq_elems ops obj) (idx - 1) 0 0 = None).
    + destruct (seek _ _ _ _ _) as [[[[[el r] s] wd] p]|]; [split; discriminate|split; reflexivity].
    + rewrite seek_defined_iff. lia.
Qed.
