(* Crdt/LocalProofs.v — what each editing call of Crdt/Local.v does to the observation ([observe] of
   Crdt/Interp.v), for any well-formed op set.  A call appends ops that carry the greatest id so far, and
   everything follows from what appending one such op does to the visible entries ([vis_ops_snoc]). *)
From AM Require Import Base.Prelude Base.ListFacts Base.Order Crdt.Types Crdt.Interp Crdt.Local.
From AM Require Export Crdt.InterpProofs.
From Coq Require Import Sorting.Sorted.
Local Open Scope N_scope.

Lemma find_map {A B} (g : A -> B) (p : B -> bool) l :
  find p (map g l) = option_map g (find (fun x => p (g x)) l).
Proof. induction l as [|x t IH]; cbn; [reflexivity|]. destruct (p (g x)); [reflexivity|exact IH]. Qed.

Lemma find_ext {A} (p q : A -> bool) l : (forall x, p x = q x) -> find p l = find q l.
Proof. intros H. induction l as [|x t IH]; cbn; [reflexivity|]. rewrite H, IH. reflexivity. Qed.

Lemma find_app {A} (p : A -> bool) l l' :
  find p (l ++ l') = match find p l with Some x => Some x | None => find p l' end.
Proof. induction l as [|x t IH]; cbn; [reflexivity|]. destruct (p x); [reflexivity|exact IH]. Qed.

Lemma firstn_skipn_splice {A} (a b c m : list A) :
  firstn (length a) (a ++ b ++ c) ++ m ++ skipn (length b + length a) (a ++ b ++ c) = a ++ m ++ c.
Proof.
  rewrite firstn_app, Nat.sub_diag, firstn_all. cbn [firstn]. rewrite app_nil_r.
  rewrite (app_assoc a b c), Nat.add_comm, <- app_length, skipn_app, Nat.sub_diag, skipn_all. reflexivity.
Qed.

Lemma StronglySorted_snoc {A} (R : A -> A -> Prop) l x :
  StronglySorted R l -> Forall (fun y => R y x) l -> StronglySorted R (l ++ [x]).
Proof.
  intros S B. induction S as [|y t _ IH Hy]; cbn; [repeat constructor|].
  inversion B as [|? ? By Bt]; subst. constructor; [apply IH, Bt|].
  apply Forall_app. split; [exact Hy|]. constructor; [exact By|constructor].
Qed.

Definition id_lt_p (a b : op) : Prop := opid_cmp (op_id a) (op_id b) = Lt.
Definition ssorted (l : list op) : Prop := StronglySorted id_lt_p l.
Definition wf_tx (t : tx) : Prop := wf_tx_b t = true.

Lemma id_lt_spec a b : id_lt a b = true <-> id_lt_p a b.
Proof. unfold id_lt, opid_ltb, ltb, id_lt_p. destruct (opid_cmp (op_id a) (op_id b)); split; congruence. Qed.

Lemma ssorted_b_spec l : ssorted_b l = true <-> ssorted l.
Proof.
  unfold ssorted. induction l as [|x t IH]; cbn [ssorted_b].
  - split; [constructor|reflexivity].
  - rewrite andb_true_iff, IH, (forallb_Forall _ _ t (id_lt_spec x)). split.
    + intros [Hx Ht]. constructor; assumption.
    + intros H. apply and_comm, StronglySorted_inv, H.
Qed.

Lemma ssorted_nodup l : ssorted l -> NoDup (map op_id l).
Proof.
  induction 1 as [|x t _ IH Hx]; cbn; constructor; [|exact IH].
  intros Hin. apply in_map_iff in Hin. destruct Hin as (y & Hy & Hin).
  rewrite Forall_forall in Hx. specialize (Hx y Hin). unfold id_lt_p in Hx.
  rewrite <- Hy in Hx. rewrite (cmp_refl opid_cmp opid_cmp_total) in Hx. discriminate.
Qed.

Lemma ssorted_ksorted l : ssorted l -> ksorted op_id opid_cmp l.
Proof.
  unfold ssorted, ksorted. induction 1 as [|x t _ IH Hx]; constructor; [exact IH|].
  eapply Forall_impl; [|exact Hx]. intros y Hy. unfold kle, le. unfold id_lt_p in Hy. congruence.
Qed.

Lemma observe_sorted_eq l : ssorted l -> observe l = observe_sorted l.
Proof. intros S. unfold observe. f_equal. apply isort_id, ssorted_ksorted, S. Qed.

Lemma op_below_parts c o :
  op_below c o = true <->
  fst (op_id o) < c /\ fst (op_obj o) < c /\ key_ctr (op_key o) < c /\ forall p, In p (op_pred o) -> fst p < c.
Proof.
  unfold op_below. rewrite !andb_true_iff, forallb_forall, !N.ltb_lt.
  split; [intros [[[A B] C] D]|intros (A & B & C & D)]; repeat split; auto; intros p Hp; apply N.ltb_lt, D, Hp.
Qed.

Lemma op_below_mono c c' o : c <= c' -> op_below c o = true -> op_below c' o = true.
Proof.
  intros Le H. apply op_below_parts in H. apply op_below_parts. destruct H as (A & B & C & D).
  repeat split; try (eapply N.lt_le_trans; eassumption). intros p Hp. exact (N.lt_le_trans _ _ _ (D p Hp) Le).
Qed.

Record fresh (ops : list op) (n : op) : Prop := {
  fr_id : forall o, In o ops -> op_id o <> op_id n;
  fr_named : forall o, In o ops -> ~ In (op_id n) (op_pred o);
  fr_self : ~ In (op_id n) (op_pred n);
  fr_key : forall o, In o ops -> op_key o <> KSeq (op_id n);
  fr_obj : forall o, In o ops -> op_obj o <> op_id n }.

Lemma fresh_incl ops ops' n : incl ops' ops -> fresh ops n -> fresh ops' n.
Proof. intros I [A B C D E]. split; auto. Qed.

Lemma memb_opid_In x l : memb opid_eqb x l = true <-> In x l.
Proof. apply memb_In. intros; apply opid_eqb_spec. Qed.

Lemma memb_opid_false x l : ~ In x l -> memb opid_eqb x l = false.
Proof. apply memb_false, opid_eqb_spec. Qed.

Definition entry_of (ctx : list op) (o : op) : list vis_entry :=
  if visible ctx o && negb (is_mark o) then
    match vobs_of ctx o with Some v => [(slot o, (op_id o, v))] | None => [] end
  else [].

Lemma vis_ops_entry ops : vis_ops ops = flat_map (entry_of ops) ops.
Proof. reflexivity. Qed.

(* what a new op [n] does to an existing entry *)
Definition updv (n : op) (iw : opid * vobs) : list (opid * vobs) :=
  if memb opid_eqb (fst iw) (op_pred n) then
    (if is_inc n then match snd iw with VC z => [(fst iw, VC (z + inc_value n)%Z)] | _ => [] end else [])
  else [iw].
Definition upd (n : op) (en : vis_entry) : list vis_entry := map (fun x => (fst en, x)) (updv n (snd en)).

Lemma visible_snoc ctx n o : visible (ctx ++ [n]) o = visible ctx o && negb (hides o n).
Proof.
  unfold visible. rewrite existsb_app. cbn [existsb]. rewrite orb_false_r, negb_orb.
  destruct (is_inc o), (is_del o), (existsb (hides o) ctx), (hides o n); reflexivity.
Qed.

Lemma counter_total_snoc ctx n o z :
  counter_total (ctx ++ [n]) o z =
  if names n o && is_inc n then (counter_total ctx o z + inc_value n)%Z else counter_total ctx o z.
Proof. unfold counter_total. rewrite fold_left_app. cbn [fold_left]. reflexivity. Qed.

(* a new op changes what an older one shows only by adding to a counter it increments *)
Lemma vobs_of_snoc ctx n o :
  vobs_of (ctx ++ [n]) o =
  match vobs_of ctx o with
  | Some (VC z) => Some (VC (if names n o && is_inc n then z + inc_value n else z)%Z)
  | v => v
  end.
Proof.
  unfold vobs_of. destruct (op_action o) as [[]| | | | |]; try reflexivity.
  rewrite counter_total_snoc. destruct (names n o && is_inc n); reflexivity.
Qed.

Lemma is_counter_vobs ctx o : is_counter o = match vobs_of ctx o with Some (VC _) => true | _ => false end.
Proof. unfold is_counter, vobs_of. destruct (op_action o) as [[]| | | | |]; reflexivity. Qed.

Lemma entry_of_snoc ctx n o : entry_of (ctx ++ [n]) o = flat_map (upd n) (entry_of ctx o).
Proof.
  unfold entry_of. rewrite visible_snoc, vobs_of_snoc. unfold hides. rewrite (is_counter_vobs ctx).
  destruct (visible ctx o); [|reflexivity]. destruct (is_mark o); [rewrite andb_false_r; reflexivity|].
  unfold upd, updv, names.
  destruct (vobs_of ctx o) as [[s|z|ty]|]; cbn [andb negb flat_map fst snd app];
    destruct (memb opid_eqb (op_id o) (op_pred n)), (is_inc n); reflexivity.
Qed.

Definition scalar_vobs (v : scalar) : vobs := match v with SCounter z => VC z | _ => VS v end.

(* the new op's own register entry, and that entry under its slot *)
Definition own_reg (n : op) : regobs :=
  match op_action n with
  | APut v => [(op_id n, scalar_vobs v)]
  | AMake t => [(op_id n, VO t)]
  | _ => []
  end.
Definition own (n : op) : list vis_entry := map (fun x => (slot n, x)) (own_reg n).

Lemma counter_total_unnamed ops o z :
  (forall s, In s ops -> names s o = false) -> counter_total ops o z = z.
Proof.
  unfold counter_total. revert z. induction ops as [|s t IH]; intros z H; cbn; [reflexivity|].
  rewrite H by (left; reflexivity). cbn. apply IH. intros s' Hs. apply H. right. exact Hs.
Qed.

Lemma entry_of_own ops n : fresh ops n -> entry_of (ops ++ [n]) n = own n.
Proof.
  intros F. unfold entry_of, own, own_reg.
  assert (Nn : forall s, In s (ops ++ [n]) -> names s n = false).
  { intros s Hs. unfold names. apply memb_opid_false. apply in_app_or in Hs. destruct Hs as [Hs|[<-|[]]].
    - apply (fr_named _ _ F), Hs.
    - apply (fr_self _ _ F). }
  assert (V : existsb (hides n) (ops ++ [n]) = false).
  { apply existsb_false. intros s Hs. unfold hides. rewrite Nn by exact Hs. reflexivity. }
  unfold visible. rewrite V. unfold vobs_of, is_inc, is_del, is_mark.
  destruct (op_action n) as [v| | | | |]; cbn; try reflexivity.
  destruct v; try reflexivity. rewrite counter_total_unnamed by exact Nn. reflexivity.
Qed.

Theorem vis_ops_snoc ops n :
  fresh ops n -> vis_ops (ops ++ [n]) = flat_map (upd n) (vis_ops ops) ++ own n.
Proof.
  intros F. rewrite !vis_ops_entry. rewrite flat_map_app. cbn [flat_map]. rewrite app_nil_r.
  rewrite entry_of_own by exact F. f_equal.
  rewrite flat_map_flat_map. apply flat_map_ext. intros o. apply entry_of_snoc.
Qed.

Lemma register_app a b k : register (a ++ b) k = register a k ++ register b k.
Proof. unfold register. apply flat_map_app. Qed.

Lemma register_tagged s (l : regobs) k :
  register (map (fun x => (s, x)) l) k = if key_eqb s k then l else [].
Proof.
  unfold register. induction l as [|x l IH]; cbn [map flat_map fst snd].
  - destruct (key_eqb s k); reflexivity.
  - rewrite IH. destruct (key_eqb s k); reflexivity.
Qed.

Lemma register_upd n vis k : register (flat_map (upd n) vis) k = flat_map (updv n) (register vis k).
Proof.
  unfold register. rewrite !flat_map_flat_map. apply flat_map_ext. intros en.
  change (register (upd n en) k = flat_map (updv n) (if key_eqb (fst en) k then [snd en] else [])).
  unfold upd. rewrite register_tagged.
  destruct (key_eqb (fst en) k); cbn [flat_map]; rewrite ?app_nil_r; reflexivity.
Qed.

Lemma register_own n k : register (own n) k = if key_eqb (slot n) k then own_reg n else [].
Proof. apply register_tagged. Qed.

Lemma obj_ops_snoc ops n obj :
  obj_ops (ops ++ [n]) obj = obj_ops ops obj ++ (if opid_eqb (op_obj n) obj then [n] else []).
Proof. unfold obj_ops. rewrite filter_app. reflexivity. Qed.

Lemma obj_ops_incl ops obj : incl (obj_ops ops obj) ops.
Proof. intros x Hx. apply filter_In in Hx. tauto. Qed.

Theorem reg_at_snoc ops n obj k :
  fresh ops n ->
  reg_at (ops ++ [n]) obj k =
  if opid_eqb (op_obj n) obj
  then flat_map (updv n) (reg_at ops obj k) ++ (if key_eqb (slot n) k then own_reg n else [])
  else reg_at ops obj k.
Proof.
  intros F. unfold reg_at. rewrite obj_ops_snoc.
  destruct (opid_eqb (op_obj n) obj); [|rewrite app_nil_r; reflexivity].
  rewrite vis_ops_snoc by (eapply fresh_incl; [apply obj_ops_incl|exact F]).
  rewrite register_app, register_upd, register_own. reflexivity.
Qed.

Lemma in_register vis k iw : In (k, iw) vis -> In iw (register vis k).
Proof.
  unfold register. intros H. apply in_flat_map. exists (k, iw). split; [exact H|].
  cbn. rewrite key_eqb_refl. left. reflexivity.
Qed.

Lemma reg_at_in ops obj k i w :
  In (i, w) (reg_at ops obj k) ->
  exists o, In o ops /\ op_obj o = obj /\ op_id o = i /\ slot o = k.
Proof.
  unfold reg_at. intros H. apply register_in, vis_ops_visible in H.
  destruct H as (o & Ho & H1 & H2 & _). apply filter_In in Ho. destruct Ho as [Ho E].
  apply opid_eqb_spec in E. exists o. auto.
Qed.

Lemma reg_slot_unique ops obj obj' k k' i w w' :
  NoDup (map op_id ops) ->
  In (i, w) (reg_at ops obj k) -> In (i, w') (reg_at ops obj' k') -> obj = obj' /\ k = k'.
Proof.
  intros ND H1 H2. apply reg_at_in in H1, H2.
  destruct H1 as (o & Ho & A1 & A2 & A3). destruct H2 as (o' & Ho' & B1 & B2 & B3).
  assert (o = o') by (apply (NoDup_map_inj op_id ops); congruence). subst o'. split; congruence.
Qed.

Lemma reg_ids_nodup ops obj k : NoDup (map op_id ops) -> NoDup (map fst (reg_at ops obj k)).
Proof.
  intros ND. unfold reg_at. rewrite register_ids_sub.
  apply NoDup_map_filter. destruct (vis_ops_ids (obj_ops ops obj)) as [f Hf]. rewrite Hf.
  apply NoDup_map_filter. unfold obj_ops. apply NoDup_map_filter. exact ND.
Qed.

Lemma updv_outside n (l : regobs) :
  (forall iw, In iw l -> ~ In (fst iw) (op_pred n)) -> flat_map (updv n) l = l.
Proof.
  induction l as [|iw t IH]; intros H; [reflexivity|]. cbn [flat_map].
  rewrite IH by (intros x Hx; apply H; right; exact Hx).
  unfold updv. rewrite memb_opid_false by (apply H; left; reflexivity). reflexivity.
Qed.

Lemma updv_kept n (r : regobs) :
  is_inc n = false ->
  flat_map (updv n) r = flat_map (fun iw => if memb opid_eqb (fst iw) (op_pred n) then [] else [iw]) r.
Proof. intros Hi. apply flat_map_ext. intros iw. unfold updv. rewrite Hi. reflexivity. Qed.

Definition inc_reg (z : Z) (r : regobs) : regobs :=
  flat_map (fun iw => match snd iw with VC c => [(fst iw, VC (c + z)%Z)] | _ => [] end) r.

Lemma updv_all_named n (r : regobs) :
  (forall iw, In iw r -> In (fst iw) (op_pred n)) ->
  flat_map (updv n) r = if is_inc n then inc_reg (inc_value n) r else [].
Proof.
  intros H. destruct (is_inc n) eqn:Hi; [apply flat_map_ext_in|apply flat_map_nil];
    intros iw Hin; unfold updv; rewrite (proj2 (memb_opid_In _ _)), Hi by apply H, Hin; reflexivity.
Qed.

Lemma updv_all_dropped n (r : regobs) :
  is_inc n = false -> (forall iw, In iw r -> In (fst iw) (op_pred n)) -> flat_map (updv n) r = [].
Proof. intros Hi H. rewrite (updv_all_named n r H), Hi. reflexivity. Qed.

Lemma reg_at_snoc_frame ops n obj K :
  NoDup (map op_id ops) -> fresh ops n ->
  (forall i, In i (op_pred n) -> exists w, In (i, w) (reg_at ops (op_obj n) (slot n))) ->
  obj <> op_obj n \/ K <> slot n -> reg_at (ops ++ [n]) obj K = reg_at ops obj K.
Proof.
  intros ND F HP NE. rewrite reg_at_snoc by exact F.
  destruct (opid_eqb (op_obj n) obj) eqn:E; [|reflexivity]. apply opid_eqb_spec in E. subst obj.
  rewrite key_eqb_false by (destruct NE; congruence). rewrite app_nil_r.
  apply updv_outside. intros [i w] Hin Hp. destruct (HP _ Hp) as [w' Hin'].
  destruct (reg_slot_unique ops _ _ _ _ i w w' ND Hin Hin') as [_ E]. destruct NE; congruence.
Qed.

Lemma reg_at_snoc_own ops n :
  fresh ops n ->
  reg_at (ops ++ [n]) (op_obj n) (slot n) = flat_map (updv n) (reg_at ops (op_obj n) (slot n)) ++ own_reg n.
Proof. intros F. rewrite reg_at_snoc by exact F. rewrite opid_eqb_refl, key_eqb_refl. reflexivity. Qed.

Lemma reg_at_fresh_slot ops n obj : fresh ops n -> reg_at ops obj (KSeq (op_id n)) = [].
Proof.
  intros F. apply incl_l_nil. intros [i w] Hin. exfalso.
  apply reg_at_in in Hin. destruct Hin as (o & Ho & _ & _ & Hs).
  unfold slot in Hs. destruct (op_key o) as [s|el] eqn:Ko; [discriminate|].
  destruct (op_insert o).
  - inversion Hs. apply (fr_id _ _ F o Ho). assumption.
  - inversion Hs. subst el. apply (fr_key _ _ F o Ho). exact Ko.
Qed.

Lemma obj_ops_snoc_other ops n obj : obj <> op_obj n -> obj_ops (ops ++ [n]) obj = obj_ops ops obj.
Proof. intros NE. rewrite obj_ops_snoc, opid_eqb_false by congruence. apply app_nil_r. Qed.

Lemma obj_ops_fresh ops n : fresh ops n -> obj_ops ops (op_id n) = [].
Proof. intros F. apply filter_all_false. intros o Ho. apply opid_eqb_false, (fr_obj _ _ F o Ho). Qed.

Lemma elem_order_obj_snoc ops n obj :
  elem_order (obj_ops (ops ++ [n]) obj) =
  if opid_eqb (op_obj n) obj && op_insert n then place (elem_order (obj_ops ops obj)) n
  else elem_order (obj_ops ops obj).
Proof.
  rewrite obj_ops_snoc. destruct (opid_eqb (op_obj n) obj); cbn [andb]; [apply elem_order_snoc|].
  rewrite app_nil_r. reflexivity.
Qed.

Lemma insert_after_in r x l e : In e (insert_after r x l) -> e = x \/ In e l.
Proof.
  induction l as [|y t IH]; cbn.
  - intros [<-|[]]. left. reflexivity.
  - destruct (opid_eqb y r); cbn.
    + intros [<-|[<-|H]]; auto.
    + intros [<-|H]; auto. destruct (IH H); auto.
Qed.

Lemma objects_snoc ops n :
  objects (ops ++ [n]) = objects ops ++ match make_type n with Some t => [(op_id n, t)] | None => [] end.
Proof.
  unfold objects. rewrite flat_map_app. cbn [flat_map]. rewrite app_nil_r.
  rewrite app_comm_cons. reflexivity.
Qed.

Lemma lookup_type_snoc_eq ops n obj :
  lookup_type (ops ++ [n]) obj =
  match lookup_type ops obj with
  | Some ty => Some ty
  | None => if opid_eqb (op_id n) obj then make_type n else None
  end.
Proof.
  unfold lookup_type. rewrite objects_snoc, find_app.
  destruct (find (fun ot => opid_eqb (fst ot) obj) (objects ops)); [reflexivity|].
  destruct (make_type n); cbn; destruct (opid_eqb (op_id n) obj); reflexivity.
Qed.

Lemma objects_ids ops ot : In ot (objects ops) -> fst ot = root_id \/ exists o, In o ops /\ op_id o = fst ot.
Proof.
  unfold objects. intros [<-|H]; [left; reflexivity|]. right.
  apply in_flat_map in H. destruct H as (o & Ho & H). destruct (make_type o); [|destruct H].
  destruct H as [<-|[]]. exists o. auto.
Qed.

Lemma lookup_type_made ops obj ty :
  lookup_type ops obj = Some ty -> obj = root_id \/ exists o, In o ops /\ op_id o = obj.
Proof.
  unfold lookup_type. destruct (find _ (objects ops)) as [ot|] eqn:E; [|discriminate]. intros _.
  apply find_some in E. destruct E as [Hin E]. apply opid_eqb_spec in E. subst obj. apply objects_ids, Hin.
Qed.

(* the vocabulary of the statements: one object, one map register, the registers of a sequence *)
Definition obs_obj (ob : obs) (id : opid) : option oobs := find (fun o => opid_eqb (oo_id o) id) ob.
Definition obs_reg (ob : obs) (obj : opid) (k : list N) : regobs :=
  match obs_obj ob obj with
  | Some o => match oo_entries o with
              | EM l => match find (fun p => nlist_eqb (fst p) k) l with Some p => snd p | None => [] end
              | EL _ => []
              end
  | None => []
  end.
Definition obs_seq (ob : obs) (obj : opid) : list regobs :=
  match obs_obj ob obj with
  | Some o => match oo_entries o with EL l => l | EM _ => [] end
  | None => []
  end.

Lemma oo_id_observe_obj fops id t : oo_id (observe_obj fops id t) = id.
Proof. unfold observe_obj. destruct (is_seq_type t); reflexivity. Qed.

Lemma observe_ids ops : map oo_id (observe_sorted ops) = map fst (objects ops).
Proof.
  unfold observe_sorted. rewrite map_map. apply map_ext. intros ot. apply oo_id_observe_obj.
Qed.

Lemma obs_obj_sorted ops obj :
  ssorted ops ->
  obs_obj (observe ops) obj = option_map (observe_obj (obj_ops ops obj) obj) (lookup_type ops obj).
Proof.
  intros S. rewrite (observe_sorted_eq _ S). unfold obs_obj, observe_sorted, lookup_type. rewrite find_map.
  rewrite (find_ext _ (fun ot => opid_eqb (fst ot) obj)) by (intros ot; rewrite oo_id_observe_obj; reflexivity).
  destruct (find (fun ot => opid_eqb (fst ot) obj) (objects ops)) as [ot|] eqn:E; [|reflexivity].
  apply find_some in E. destruct E as [_ E]. apply opid_eqb_spec in E. cbn. rewrite E. reflexivity.
Qed.

Lemma find_em (R : list N -> regobs) K k :
  (R k <> [] -> In k K) ->
  match find (fun p => nlist_eqb (fst p) k)
             (flat_map (fun k' => match R k' with [] => [] | r => [(k', r)] end) K) with
  | Some p => snd p | None => [] end = R k.
Proof.
  induction K as [|a K IH]; intros H; cbn [flat_map find].
  - destruct (R k) eqn:E; [reflexivity|]. exfalso. apply H. discriminate.
  - assert (H' : a <> k -> R k <> [] -> In k K).
    { intros Na Hr. destruct (H Hr) as [->|Hin]; [contradiction|exact Hin]. }
    destruct (R a) as [|x r] eqn:Ra; cbn [app].
    + apply IH. intros Hr. apply H'; [|exact Hr]. intros ->. contradiction.
    + cbn [find fst snd]. destruct (nlist_eqb a k) eqn:E.
      * apply bytes_eqb_spec in E. subst a. cbn. symmetry. exact Ra.
      * apply IH. apply H'. intros Q. exact (eq_true_false_abs _ (proj2 (bytes_eqb_spec a k) Q) E).
Qed.

Lemma slot_map o k : slot o = KMap k -> op_key o = KMap k.
Proof. unfold slot. destruct (op_key o); intros H; [exact H|discriminate]. Qed.

Lemma map_key_listed ops obj k :
  reg_at ops obj (KMap k) <> [] -> In k (dedup_sorted (isort bytes_cmp (map_keys (obj_ops ops obj)))).
Proof.
  intros NE. apply in_dedup_sorted, In_isort.
  destruct (reg_at ops obj (KMap k)) as [|[i w] r] eqn:E; [contradiction|].
  assert (Hin : In (i, w) (reg_at ops obj (KMap k))) by (rewrite E; left; reflexivity).
  apply register_in, vis_ops_visible in Hin. destruct Hin as (o & Ho & _ & Hs & _).
  unfold map_keys. apply in_flat_map. exists o. split; [exact Ho|]. rewrite (slot_map _ _ Hs). left. reflexivity.
Qed.

Lemma obs_reg_spec ops obj t k :
  ssorted ops -> lookup_type ops obj = Some t -> is_seq_type t = false ->
  obs_reg (observe ops) obj k = reg_at ops obj (KMap k).
Proof.
  intros So L S. unfold obs_reg. rewrite (obs_obj_sorted _ _ So), L. cbn [option_map].
  unfold observe_obj. rewrite S. cbn [oo_entries].
  apply (find_em (fun k' => reg_at ops obj (KMap k'))), map_key_listed.
Qed.

Lemma obs_seq_spec ops obj t :
  ssorted ops -> lookup_type ops obj = Some t -> is_seq_type t = true ->
  obs_seq (observe ops) obj = map snd (seq_elems ops obj).
Proof.
  intros So L S. unfold obs_seq. rewrite (obs_obj_sorted _ _ So), L. cbn [option_map].
  unfold observe_obj. rewrite S. cbn [oo_entries]. unfold seq_elems, reg_at.
  induction (elem_order (obj_ops ops obj)) as [|e l IH]; cbn [flat_map map]; [reflexivity|].
  rewrite map_app, IH. destruct (register (vis_ops (obj_ops ops obj)) (KSeq e)); reflexivity.
Qed.

Lemma wf_tx_parts t :
  wf_tx t -> ssorted (tx_all t) /\ Forall (fun o => op_below (next_ctr t) o = true) (tx_all t) /\ 0 < tx_start t.
Proof.
  unfold wf_tx, wf_tx_b. rewrite !andb_true_iff. intros [[[A B] C] _].
  split; [apply ssorted_b_spec, A|]. split; [apply Forall_forall; rewrite forallb_forall in B; exact B|].
  apply N.ltb_lt, C.
Qed.

Lemma wf_tx_ids_pos t o : wf_tx t -> In o (tx_all t) -> 0 < fst (op_id o).
Proof.
  unfold wf_tx, wf_tx_b. rewrite !andb_true_iff. intros [_ D] Ho. rewrite forallb_forall in D.
  apply N.ltb_lt, D, Ho.
Qed.

Lemma next_id_ctr t : fst (next_id t) = next_ctr t.
Proof. reflexivity. Qed.

Lemma fresh_of_wf t n :
  wf_tx t -> op_id n = next_id t -> (forall p, In p (op_pred n) -> fst p < next_ctr t) ->
  fresh (tx_all t) n.
Proof.
  intros W Hid Hp. destruct (wf_tx_parts t W) as (_ & B & _). rewrite Forall_forall in B.
  assert (Lt : forall x, fst x < next_ctr t -> x <> op_id n).
  { intros x H ->. rewrite Hid in H. exact (N.lt_irrefl _ H). }
  split; try intros o Ho; try destruct (proj1 (op_below_parts _ _) (B o Ho)) as (Bi & Bo & Bk & Bp).
  - exact (Lt _ Bi).
  - intros Hin. exact (Lt _ (Bp _ Hin) eq_refl).
  - intros Hin. exact (Lt _ (Hp _ Hin) eq_refl).
  - intros E. rewrite E in Bk. exact (Lt _ Bk eq_refl).
  - exact (Lt _ Bo).
Qed.

Lemma tx_all_push t n : tx_all (push t n) = tx_all t ++ [n].
Proof. unfold tx_all, push. cbn. apply app_assoc. Qed.

Lemma wf_tx_id_below t o : wf_tx t -> In o (tx_all t) -> fst (op_id o) < next_ctr t.
Proof.
  intros W Ho. destruct (wf_tx_parts t W) as (_ & B & _). rewrite Forall_forall in B.
  exact (proj1 (proj1 (op_below_parts _ _) (B o Ho))).
Qed.

Lemma push_sorted t n : wf_tx t -> op_id n = next_id t -> ssorted (tx_all t ++ [n]).
Proof.
  intros W Hid. apply StronglySorted_snoc; [apply (wf_tx_parts t W)|]. apply Forall_forall. intros o Ho.
  unfold id_lt_p, opid_cmp. rewrite Hid, next_id_ctr, (proj2 (N.compare_lt_iff _ _) (wf_tx_id_below t o W Ho)). reflexivity.
Qed.

Lemma next_ctr_push t n : next_ctr (push t n) = next_ctr t + 1.
Proof. unfold next_ctr, push. cbn. rewrite app_length. cbn. lia. Qed.

(* so the theorems below compose call after call *)
Lemma wf_push t n :
  wf_tx t -> op_id n = next_id t -> fst (op_obj n) < next_ctr t -> key_ctr (op_key n) < next_ctr t ->
  (forall p, In p (op_pred n) -> fst p < next_ctr t) -> wf_tx (push t n).
Proof.
  intros W Hid Ho Hk Hp. destruct (wf_tx_parts t W) as (Srt & B & St).
  assert (Lt : next_ctr t < next_ctr t + 1) by apply N.lt_add_pos_r, N.lt_0_1.
  unfold wf_tx, wf_tx_b. rewrite tx_all_push, next_ctr_push, !forallb_app, !andb_true_iff. cbn [forallb].
  rewrite !andb_true_r. split; [split; [split; [|split]|]|split].
  - apply ssorted_b_spec, push_sorted; assumption.
  - apply forallb_forall. intros o Hin. rewrite Forall_forall in B.
    exact (op_below_mono _ _ o (N.lt_le_incl _ _ Lt) (B o Hin)).
  - apply op_below_parts. rewrite Hid. repeat split; try (eapply N.lt_trans; eassumption); [exact Lt|].
    intros p Hq. exact (N.lt_trans _ _ _ (Hp p Hq) Lt).
  - apply N.ltb_lt, St.
  - apply forallb_forall. intros o Hin. apply N.ltb_lt, (wf_tx_ids_pos t o W Hin).
  - apply N.ltb_lt. rewrite Hid. exact (N.lt_le_trans _ _ _ St (N.le_add_r _ _)).
Qed.

Lemma reg_preds_below t obj k (r : regobs) p :
  wf_tx t -> incl r (reg_at (tx_all t) obj k) -> In p (map fst r) -> fst p < next_ctr t.
Proof.
  intros W I Hp. apply in_map_iff in Hp. destruct Hp as ([i w] & <- & Hp).
  apply I, reg_at_in in Hp. destruct Hp as (o & Ho & _ & <- & _). exact (wf_tx_id_below t o W Ho).
Qed.

Lemma wf_reg_nodup t obj k : wf_tx t -> NoDup (map fst (reg_at (tx_all t) obj k)).
Proof. intros W. apply reg_ids_nodup, ssorted_nodup, (wf_tx_parts t W). Qed.

Lemma lookup_type_ctr_below t obj ty : wf_tx t -> lookup_type (tx_all t) obj = Some ty -> fst obj < next_ctr t.
Proof.
  intros W L. destruct (lookup_type_made _ _ _ L) as [->|(o & Ho & <-)]; [|exact (wf_tx_id_below t o W Ho)].
  apply (N.lt_le_trans _ _ _ (proj2 (proj2 (wf_tx_parts t W)))), N.le_add_r.
Qed.

Lemma lookup_type_below t obj ty : wf_tx t -> lookup_type (tx_all t) obj = Some ty -> obj <> next_id t.
Proof. intros W L ->. exact (N.lt_irrefl _ (lookup_type_ctr_below _ _ _ W L)). Qed.

Lemma lookup_type_next_none t : wf_tx t -> lookup_type (tx_all t) (next_id t) = None.
Proof.
  intros W. destruct (lookup_type (tx_all t) (next_id t)) eqn:E; [|reflexivity].
  destruct (lookup_type_below _ _ _ W E eq_refl).
Qed.

Lemma lookup_type_push t n obj :
  wf_tx t -> op_id n = next_id t ->
  lookup_type (tx_all t ++ [n]) obj = if opid_eqb (next_id t) obj then make_type n else lookup_type (tx_all t) obj.
Proof.
  intros W Hid. rewrite lookup_type_snoc_eq, Hid.
  destruct (lookup_type (tx_all t) obj) eqn:L; [|reflexivity].
  rewrite opid_eqb_false; [reflexivity|]. apply not_eq_sym, (lookup_type_below _ _ _ W L).
Qed.

(* what appending one op leaves in place: the order, the type of every object there was, and every
   object other than the one it edits or creates *)
Lemma push_after t n obj ty :
  wf_tx t -> op_id n = next_id t -> lookup_type (tx_all t) obj = Some ty ->
  ssorted (tx_all (push t n)) /\ lookup_type (tx_all (push t n)) obj = Some ty /\
  forall obj', obj' <> op_obj n -> obj' <> next_id t \/ (forall nt, op_action n <> AMake nt) ->
    obs_obj (observe (tx_all (push t n))) obj' = obs_obj (observe (tx_all t)) obj'.
Proof.
  intros W Hid L. rewrite tx_all_push. pose proof (push_sorted t n W Hid) as S'. split; [exact S'|]. split.
  - rewrite lookup_type_push by assumption.
    rewrite opid_eqb_false by apply not_eq_sym, (lookup_type_below _ _ _ W L). exact L.
  - intros obj' NO NM. rewrite (obs_obj_sorted _ _ S'), (obs_obj_sorted _ _ (proj1 (wf_tx_parts t W))).
    rewrite (obj_ops_snoc_other _ _ _ NO), (lookup_type_push t n obj' W Hid).
    destruct (opid_eqb (next_id t) obj') eqn:E; [|reflexivity].
    apply opid_eqb_spec in E. subst obj'. destruct NM as [NE|NM]; [contradiction|].
    rewrite (lookup_type_next_none t W). unfold make_type.
    destruct (op_action n) as [| nt | | | |]; try reflexivity. destruct (NM nt eq_refl).
Qed.

Lemma update_op_inv t obj k r a t' oid :
  update_op t obj k r a = EOk (t', oid) ->
  (resolve_action r a = None /\ t' = t /\ oid = None) \/
  (exists a' r', resolve_action r a = Some (a', r') /\
     (is_inc_action a' && negb (existsb is_vc r')) = false /\
     t' = push t (mkOp (next_id t) obj k false a' (map fst r')) /\ oid = Some (next_id t)).
Proof.
  unfold update_op. destruct (resolve_action r a) as [[a' r']|].
  - destruct (is_inc_action a' && negb (existsb is_vc r')) eqn:E; [discriminate|].
    intros H. inversion H. right. exists a', r'. auto.
  - intros H. inversion H. left. auto.
Qed.

(* [resolve_action]: only a put looks at the winner; a put of the winning value turns into a delete of
   the other values (or nothing, when there are none) *)
Lemma resolve_no_put r a :
  (forall v, a <> APut v) ->
  resolve_action r a = match a, r with ADel, [] => None | _, _ => Some (a, r) end.
Proof.
  intros NP. unfold resolve_action. destruct (winner r) as [[i w]|] eqn:W.
  - destruct r; [discriminate|]. destruct a; try reflexivity. destruct (NP v eq_refl).
  - rewrite (winner_none _ W). destruct a; reflexivity.
Qed.

Lemma resolve_some r a a' r' :
  resolve_action r a = Some (a', r') -> a' = a /\ r' = r \/ a' = ADel /\ r' = removelast r.
Proof.
  unfold resolve_action. intros H. destruct (winner r) as [[i w]|], a; try solve [inversion H; auto].
  destruct (same_value w v); [destruct (length r =? 1)%nat|]; inversion H; auto.
Qed.

Lemma resolve_incl r a a' r' : resolve_action r a = Some (a', r') -> incl r' r.
Proof.
  intros H. destruct (resolve_some _ _ _ _ H) as [[_ ->]|[_ ->]]; [apply incl_refl|].
  rewrite removelast_firstn_len. intros x. apply In_firstn.
Qed.

(* what [update_op] leaves alone: every other register, and the element order of every object *)
Record frame_upd (ops ops' : list op) (obj : opid) (K : key) : Prop := {
  fu_keys : forall K', K' <> K -> reg_at ops' obj K' = reg_at ops obj K';
  fu_objs : forall obj' K', obj' <> obj -> reg_at ops' obj' K' = reg_at ops obj' K';
  fu_obj_ops : forall obj', obj' <> obj -> obj_ops ops' obj' = obj_ops ops obj';
  fu_order : forall obj', elem_order (obj_ops ops' obj') = elem_order (obj_ops ops obj') }.

Lemma frame_upd_refl ops obj K : frame_upd ops ops obj K.
Proof. split; reflexivity. Qed.

(* an op that is not an insert and supersedes only ops of its own register *)
Lemma frame_upd_snoc ops n :
  NoDup (map op_id ops) -> fresh ops n -> op_insert n = false ->
  (forall i, In i (op_pred n) -> exists w, In (i, w) (reg_at ops (op_obj n) (slot n))) ->
  frame_upd ops (ops ++ [n]) (op_obj n) (slot n).
Proof.
  intros ND F NI HP. split.
  - intros K' NK. apply reg_at_snoc_frame; auto.
  - intros obj' K' NO. apply reg_at_snoc_frame; auto.
  - intros obj' NO. apply obj_ops_snoc_other, NO.
  - intros obj'. rewrite elem_order_obj_snoc, NI, andb_false_r. reflexivity.
Qed.

Definition resolved_reg (id : opid) (r : regobs) (a : action) : regobs :=
  match resolve_action r a with
  | None => r
  | Some (a', r') =>
    let kept := flat_map (fun iw => if memb opid_eqb (fst iw) (map fst r') then [] else [iw]) r in
    match a' with
    | APut v => kept ++ [(id, scalar_vobs v)]
    | AMake ty => kept ++ [(id, VO ty)]
    | AInc z => inc_reg z r
    | _ => kept
    end
  end.

Lemma slot_update n : op_insert n = false -> slot n = op_key n.
Proof. unfold slot. intros ->. destruct (op_key n); reflexivity. Qed.

(* put / put_object / delete / increment on ANY register (map key or list element): the register becomes
   what [resolve_action] and the new op say; everything else is unchanged *)
Theorem update_op_spec t obj K a t' oid :
  wf_tx t ->
  update_op t obj K (reg_at (tx_all t) obj K) a = EOk (t', oid) ->
  frame_upd (tx_all t) (tx_all t') obj K /\
  reg_at (tx_all t') obj K = resolved_reg (next_id t) (reg_at (tx_all t) obj K) a.
Proof.
  intros W H. unfold resolved_reg. cbv zeta.
  apply update_op_inv in H. destruct H as [(R & -> & _)|(a' & r' & R & _ & -> & _)]; rewrite R.
  - split; [apply frame_upd_refl|reflexivity].
  - rewrite tx_all_push.
    set (r := reg_at (tx_all t) obj K) in *.
    set (n := mkOp (next_id t) obj K false a' (map fst r')).
    pose proof (resolve_incl _ _ _ _ R) as Inc.
    pose proof (slot_update n eq_refl : slot n = K) as Sl.
    assert (F : fresh (tx_all t) n).
    { apply fresh_of_wf; [exact W|reflexivity|]. intros p. exact (reg_preds_below t obj K r' p W Inc). }
    split.
    + rewrite <- Sl. apply (frame_upd_snoc _ n (ssorted_nodup _ (proj1 (wf_tx_parts t W))) F eq_refl).
      rewrite Sl. intros i Hi. apply in_map_iff in Hi. destruct Hi as ([i' w] & <- & Hi). exists w. apply Inc, Hi.
    + pose proof (reg_at_snoc_own _ n F) as T. rewrite Sl in T. rewrite (T : reg_at _ obj K = _). unfold own_reg. fold r.
      cbn [op_action op_id n].
      destruct a' as [v|ty| |z|ex nm mv|ex]; try (rewrite updv_kept by reflexivity; rewrite ?app_nil_r; reflexivity).
      (* increment: every visible op is a predecessor *)
      destruct (resolve_some _ _ _ _ R) as [[_ ->]|[E _]]; [|discriminate].
      rewrite app_nil_r. apply (updv_all_named n). intros iw Hiw. apply in_map, Hiw.
Qed.

Lemma kept_all (r : regobs) :
  flat_map (fun iw : opid * vobs => if memb opid_eqb (fst iw) (map fst r) then [] else [iw]) r = [].
Proof.
  apply flat_map_nil. intros iw Hin. rewrite (proj2 (memb_opid_In _ _)) by apply in_map, Hin. reflexivity.
Qed.

Lemma kept_last (r : regobs) iw :
  NoDup (map fst r) -> winner r = Some iw ->
  flat_map (fun x : opid * vobs => if memb opid_eqb (fst x) (map fst (removelast r)) then [] else [x]) r = [iw].
Proof.
  intros ND W. pose proof (winner_split _ _ W) as E. set (rl := removelast r) in *.
  rewrite E. rewrite flat_map_app. cbn [flat_map]. rewrite app_nil_r.
  rewrite E, map_app in ND. cbn [map] in ND.
  assert (Hn : ~ In (fst iw) (map fst rl)).
  { intros Hin. apply NoDup_remove_2 in ND. apply ND. rewrite app_nil_r. exact Hin. }
  rewrite (memb_opid_false _ _ Hn).
  replace (flat_map _ rl) with (@nil (opid * vobs)); [reflexivity|].
  symmetry. apply kept_all.
Qed.

Lemma resolved_put id (r : regobs) v :
  NoDup (map fst r) ->
  resolved_reg id r (APut v) =
    match winner r with
    | Some (i, w) => if same_value w v then [(i, w)] else [(id, scalar_vobs v)]
    | None => [(id, scalar_vobs v)]
    end.
Proof.
  intros ND. unfold resolved_reg, resolve_action. destruct (winner r) as [[i w]|] eqn:Wn.
  - destruct (same_value w v); [|rewrite kept_all; reflexivity].
    destruct (length r =? 1)%nat eqn:Len; [|apply kept_last; assumption].
    apply Nat.eqb_eq in Len. pose proof (winner_split _ _ Wn) as Sp.
    destruct r as [|x [|y r']]; cbn in Len; try discriminate. exact Sp.
  - rewrite (winner_none _ Wn). reflexivity.
Qed.

Lemma resolved_no_put id r a :
  (forall v, a <> APut v) ->
  resolved_reg id r a = match a with AMake ty => [(id, VO ty)] | AInc z => inc_reg z r | _ => [] end.
Proof.
  intros NP. unfold resolved_reg. rewrite (resolve_no_put _ _ NP).
  destruct a; try (destruct r; cbv zeta; rewrite ?kept_all; reflexivity). destruct (NP v eq_refl).
Qed.

Lemma update_op_after t obj ty K r a t' oid :
  wf_tx t -> lookup_type (tx_all t) obj = Some ty -> update_op t obj K r a = EOk (t', oid) ->
  ssorted (tx_all t') /\ lookup_type (tx_all t') obj = Some ty /\
  forall obj', obj' <> obj -> obj' <> next_id t \/ (forall nt, a <> AMake nt) ->
    obs_obj (observe (tx_all t')) obj' = obs_obj (observe (tx_all t)) obj'.
Proof.
  intros W L H. apply update_op_inv in H. destruct H as [(_ & -> & _)|(a' & r' & R & _ & -> & _)].
  - split; [apply (wf_tx_parts t W)|]. split; [exact L|reflexivity].
  - destruct (push_after t (mkOp (next_id t) obj K false a' (map fst r')) obj ty W eq_refl L) as (S' & L' & Fo).
    split; [exact S'|]. split; [exact L'|]. intros obj' NO NM. apply (Fo obj' NO).
    destruct NM as [NE|NM]; [left; exact NE|right]. cbn [op_action].
    destruct (resolve_some _ _ _ _ R) as [[-> _]|[-> _]]; [exact NM|discriminate].
Qed.

Theorem map_update_obs t obj ty k a t' oid :
  wf_tx t -> lookup_type (tx_all t) obj = Some ty -> is_seq_type ty = false ->
  local_map_op t obj k a = EOk (t', oid) ->
  let ob := observe (tx_all t) in
  let ob' := observe (tx_all t') in
  obs_reg ob obj k = reg_at (tx_all t) obj (KMap k)
  /\ obs_reg ob' obj k = resolved_reg (next_id t) (obs_reg ob obj k) a
  /\ (forall k', k' <> k -> obs_reg ob' obj k' = obs_reg ob obj k')
  /\ (forall obj', obj' <> obj -> obj' <> next_id t \/ (forall nt, a <> AMake nt) ->
        obs_obj ob' obj' = obs_obj ob obj').
Proof.
  intros W L Sq H. cbv zeta. unfold local_map_op in H.
  destruct (update_op_after _ _ _ _ _ _ _ _ W L H) as (S' & L' & Fo).
  destruct (update_op_spec _ _ _ _ _ _ W H) as [Fr R].
  pose proof (fun k => obs_reg_spec _ _ ty k (proj1 (wf_tx_parts t W)) L Sq) as E.
  pose proof (fun k => obs_reg_spec _ _ ty k S' L' Sq) as E'.
  split; [apply E|]. split; [rewrite E', E; exact R|]. split; [|exact Fo].
  intros k' NK. rewrite E', E. apply (fu_keys _ _ _ _ Fr). congruence.
Qed.

Lemma drop_id_ok {A B} (r : eres (A * B)) x : drop_id r = EOk x -> exists y, r = EOk (x, y).
Proof. unfold drop_id, ebind. destruct r as [[a b]| |]; intros H; inversion H. exists b. reflexivity. Qed.

(* a successful call on an object of type [ty] that hands [r] to [drop_id] *)
Lemma with_obj_drop_id {A B t obj ty} {f : objtype -> eres A} {r : eres (A * B)} {x} :
  lookup_type (tx_all t) obj = Some ty -> with_obj t obj f = EOk x -> f ty = drop_id r ->
  exists y, r = EOk (x, y).
Proof. unfold with_obj. intros -> H E. rewrite E in H. apply drop_id_ok, H. Qed.

Lemma increment_needs_counter t obj K r z t' oid :
  update_op t obj K r (AInc z) = EOk (t', oid) -> existsb is_vc r = true.
Proof.
  unfold update_op. rewrite resolve_no_put by discriminate. cbn [is_inc_action andb].
  destruct (existsb is_vc r); [reflexivity|discriminate].
Qed.

Lemma make_op_spec t obj oty K ty :
  wf_tx t -> lookup_type (tx_all t) obj = Some oty ->
  let r := reg_at (tx_all t) obj K in
  let n := mkOp (next_id t) obj K false (AMake ty) (map fst r) in
  update_op t obj K r (AMake ty) = EOk (push t n, Some (next_id t)) /\
  (forall p, In p (op_pred n) -> fst p < next_ctr t) /\
  lookup_type (tx_all t ++ [n]) (next_id t) = Some ty /\
  obj_ops (tx_all t ++ [n]) (next_id t) = [].
Proof.
  intros W L r n.
  assert (PB : forall p, In p (op_pred n) -> fst p < next_ctr t).
  { intros p. apply (reg_preds_below t obj K r p W), incl_refl. }
  split; [unfold update_op; rewrite resolve_no_put by discriminate; reflexivity|]. split; [exact PB|]. split.
  - rewrite (lookup_type_push t n _ W eq_refl), opid_eqb_refl. reflexivity.
  - rewrite obj_ops_snoc_other by apply not_eq_sym, (lookup_type_below _ _ _ W L).
    apply (obj_ops_fresh _ n), fresh_of_wf; [exact W|reflexivity|exact PB].
Qed.

(* put_object: the register holds the new object, which exists and is empty; nothing else moves *)
Theorem put_object_map_spec e t obj k nt t' :
  wf_tx t -> lookup_type (tx_all t) obj = Some OMap ->
  step e t (CPutObj obj (PMap k) nt) = EOk t' ->
  let ob := observe (tx_all t) in
  let ob' := observe (tx_all t') in
  obs_reg ob' obj k = [(next_id t, VO nt)]
  /\ obs_obj ob' (next_id t) = Some (observe_obj [] (next_id t) nt)
  /\ (forall k', k' <> k -> obs_reg ob' obj k' = obs_reg ob obj k')
  /\ (forall obj', obj' <> obj -> obj' <> next_id t -> obs_obj ob' obj' = obs_obj ob obj').
Proof.
  intros W L H. destruct (with_obj_drop_id L H eq_refl) as [oid Hop].
  destruct (map_update_obs t obj OMap k (AMake nt) t' oid W L eq_refl Hop) as (_ & R & Fk & Fo).
  split; [|split; [|split; [exact Fk|intros obj' NE NN; apply Fo; auto]]].
  - rewrite R. apply (resolved_no_put _ _ (AMake nt)). discriminate.
  - destruct (make_op_spec t obj OMap (KMap k) nt W L) as (U & _ & Ln & En).
    unfold local_op, local_map_op in Hop. rewrite U in Hop. inversion Hop; subst t' oid.
    rewrite tx_all_push, obs_obj_sorted, Ln, En by (apply push_sorted; [exact W|reflexivity]). reflexivity.
Qed.

(* the visible elements, as a function of the element order *)
Definition gel (ops : list op) (obj : opid) (e : opid) : list (opid * regobs) :=
  match reg_at ops obj (KSeq e) with [] => [] | r => [(e, r)] end.

Lemma seq_elems_gel ops obj : seq_elems ops obj = flat_map (gel ops obj) (elem_order (obj_ops ops obj)).
Proof. reflexivity. Qed.

Lemma gel_shape ops obj e : gel ops obj e = [] \/ exists r, gel ops obj e = [(e, r)].
Proof. unfold gel. destruct (reg_at ops obj (KSeq e)); [left; reflexivity|right; eexists; reflexivity]. Qed.

Lemma seq_elems_reg ops obj el r :
  In (el, r) (seq_elems ops obj) ->
  r = reg_at ops obj (KSeq el) /\ r <> [] /\ In el (elem_order (obj_ops ops obj)).
Proof.
  rewrite seq_elems_gel. intros H. apply in_flat_map in H. destruct H as (x & Hx & H).
  unfold gel in H. destruct (reg_at ops obj (KSeq x)) as [|y l] eqn:E; [destruct H|].
  destruct H as [H|[]]. inversion H; subst. rewrite E. split; [reflexivity|]. split; [discriminate|exact Hx].
Qed.

Lemma nth_flat_split (g : opid -> list (opid * regobs)) L k e r :
  (forall e', g e' = [] \/ exists r', g e' = [(e', r')]) ->
  nth_error (flat_map g L) k = Some (e, r) ->
  exists L1 L2, L = L1 ++ e :: L2 /\ length (flat_map g L1) = k /\ g e = [(e, r)].
Proof.
  intros Sh. revert k. induction L as [|a L IH]; intros k H; cbn [flat_map] in H.
  - destruct k; discriminate.
  - destruct (Sh a) as [Ea|[ra Ea]]; rewrite Ea in H; cbn [app] in H.
    + destruct (IH k H) as (L1 & L2 & -> & Hl & Hg). exists (a :: L1), L2. cbn [flat_map]. rewrite Ea. auto.
    + destruct k as [|k].
      * cbn in H. inversion H; subst. exists [], L. auto.
      * cbn in H. destruct (IH k H) as (L1 & L2 & -> & Hl & Hg). exists (a :: L1), L2.
        cbn [flat_map]. rewrite Ea. cbn. auto.
Qed.

Lemma seq_elems_at ops obj p el r :
  NoDup (map op_id ops) -> nth_error (seq_elems ops obj) p = Some (el, r) ->
  exists L1 L2, elem_order (obj_ops ops obj) = L1 ++ el :: L2 /\ ~ In el (L1 ++ L2) /\
    length (flat_map (gel ops obj) L1) = p /\ gel ops obj el = [(el, r)].
Proof.
  intros ND H. rewrite seq_elems_gel in H.
  destruct (nth_flat_split _ _ p el r (gel_shape ops obj) H) as (L1 & L2 & EL & Len & Ge).
  exists L1, L2. split; [exact EL|]. split; [|split; [exact Len|exact Ge]].
  apply NoDup_remove_2. rewrite <- EL. apply elem_order_nodup, NoDup_map_filter, ND.
Qed.

Lemma seek_spec w els idx acc p0 el r s wd p :
  seek w els idx acc p0 = Some (el, r, s, wd, p) ->
  exists k, p = (p0 + k)%nat /\ nth_error els k = Some (el, r) /\
    s = acc + fold_right (fun er s => w (snd er) + s) 0 (firstn k els) /\ wd = w r /\
    idx < s + wd /\ (acc <= idx -> s <= idx).
Proof.
  revert acc p0. induction els as [|[e' r'] t IH]; intros acc p0 H; cbn [seek] in H; [discriminate|].
  destruct (idx <? acc + w r') eqn:E.
  - apply N.ltb_lt in E. inversion H; subst. exists O. cbn [nth_error firstn fold_right].
    rewrite N.add_0_r, Nat.add_0_r. repeat split; auto.
  - apply N.ltb_ge in E. destruct (IH _ _ H) as (k & -> & Hk & -> & Hw & Hlt & Hle).
    exists (S k). cbn [nth_error firstn fold_right snd].
    rewrite Nat.add_succ_r, N.add_assoc. repeat split; auto.
Qed.

Lemma unit_width_sum (w : regobs -> N) (l : list (opid * regobs)) :
  (forall r, w r = 1) -> fold_right (fun er s => w (snd er) + s) 0 l = N.of_nat (length l).
Proof.
  intros Hw. induction l as [|x l IH]; [reflexivity|]. cbn [fold_right length].
  rewrite IH, Hw, Nat2N.inj_succ. apply N.add_1_l.
Qed.

Lemma seek_unit w els idx e r s wd p :
  (forall r, w r = 1) -> seek w els idx 0 0 = Some (e, r, s, wd, p) -> p = N.to_nat idx.
Proof.
  intros Hw H. destruct (seek_spec _ _ _ _ _ _ _ _ _ _ H) as (k & -> & Hk & -> & -> & Hlt & Hle).
  rewrite (unit_width_sum w _ Hw), firstn_length_le, Hw in *
    by (apply Nat.lt_le_incl, nth_error_Some; congruence).
  specialize (Hle (N.le_0_l _)). lia.
Qed.

Lemma seek_none_iff w els idx acc p0 :
  acc <= idx ->
  (seek w els idx acc p0 = None <-> acc + fold_right (fun er s => w (snd er) + s) 0 els <= idx).
Proof.
  revert acc p0. induction els as [|[e r] t IH]; intros acc p0 Le; cbn [seek fold_right snd].
  - split; [intros _; lia|reflexivity].
  - destruct (idx <? acc + w r) eqn:E.
    + apply N.ltb_lt in E. split; [discriminate|lia].
    + apply N.ltb_ge in E. rewrite IH by lia. lia.
Qed.

(* an update at an index is [update_op] on the register of the element the index resolves to, so
   [update_op_spec] applies *)
Theorem list_update_spec e t obj ty i a t' oid :
  local_list_op e t obj ty i a = EOk (t', oid) ->
  exists el r s wd p,
    seek (elem_w e ty) (seq_elems (tx_all t) obj) i 0 0 = Some (el, r, s, wd, p) /\
    nth_error (seq_elems (tx_all t) obj) p = Some (el, r) /\
    r = reg_at (tx_all t) obj (KSeq el) /\
    update_op t obj (KSeq el) (reg_at (tx_all t) obj (KSeq el)) a = EOk (t', oid).
Proof.
  intros H. unfold local_list_op in H. destruct (negb (is_seq_type ty)); [discriminate|].
  destruct (seek (elem_w e ty) (seq_elems (tx_all t) obj) i 0 0) as [[[[[el r] s] wd] p]|] eqn:Sk; [|discriminate].
  exists el, r, s, wd, p. split; [reflexivity|].
  destruct (seek_spec _ _ _ _ _ _ _ _ _ _ Sk) as (k & -> & Hk & _). cbn [plus].
  split; [exact Hk|]. apply nth_error_In in Hk. destruct (seq_elems_reg _ _ _ _ Hk) as [Er _].
  split; [exact Er|]. rewrite <- Er. exact H.
Qed.

Lemma elem_order_below t obj x :
  wf_tx t -> In x (elem_order (obj_ops (tx_all t) obj)) -> 0 < fst x < next_ctr t.
Proof.
  intros W Hx. destruct (elem_order_in _ _ Hx) as (o & Ho & <-). apply obj_ops_incl in Ho.
  split; [exact (wf_tx_ids_pos t o W Ho)|exact (wf_tx_id_below t o W Ho)].
Qed.

(* one stretch [mid] of the element order changes; the registers of the other elements do not *)
Lemma seq_elems_splice ops ops' obj L1 mid L2 :
  elem_order (obj_ops ops' obj) = L1 ++ mid ++ L2 ->
  (forall x, In x (L1 ++ L2) -> reg_at ops' obj (KSeq x) = reg_at ops obj (KSeq x)) ->
  seq_elems ops' obj = flat_map (gel ops obj) L1 ++ flat_map (gel ops' obj) mid ++ flat_map (gel ops obj) L2.
Proof.
  intros EL G. rewrite seq_elems_gel, EL, !flat_map_app.
  f_equal; [|f_equal]; apply flat_map_ext_in; intros x Hx; unfold gel; rewrite G; auto using in_or_app.
Qed.

(* [L] is a stretch of an element order from its start up to and including [ref]; the head stands before
   everything *)
Definition ends_at (ref : opid) (L : list opid) : Prop :=
  (L = [] /\ ref = head_id) \/ (exists L0, L = L0 ++ [ref] /\ ~ In ref L0).

Lemma place_split L1 L2 n :
  ~ In head_id L1 -> ends_at (ref_of n) L1 -> place (L1 ++ L2) n = L1 ++ op_id n :: L2.
Proof.
  unfold place. intros NH [[-> ->]|(L0 & -> & Hn)]; [rewrite opid_eqb_refl; reflexivity|].
  rewrite opid_eqb_false, <- !app_assoc; [apply insert_after_split, Hn|].
  intros E. apply NH. rewrite E. apply in_or_app. right. left. reflexivity.
Qed.

Lemma seq_elems_insert t obj ref a L1 L2 :
  wf_tx t ->
  let ops := tx_all t in
  let n := mkOp (next_id t) obj (KSeq ref) true a [] in
  own_reg n <> [] ->
  elem_order (obj_ops ops obj) = L1 ++ L2 -> ends_at ref L1 ->
  ~ In (next_id t) (L1 ++ L2) /\
  elem_order (obj_ops (ops ++ [n]) obj) = L1 ++ next_id t :: L2 /\
  seq_elems (ops ++ [n]) obj = flat_map (gel ops obj) L1 ++ (next_id t, own_reg n) :: flat_map (gel ops obj) L2.
Proof.
  intros W ops n Own EL Hr.
  assert (F : fresh ops n) by (apply fresh_of_wf; [exact W|reflexivity|intros p []]).
  assert (Old : forall x, In x (L1 ++ L2) -> 0 < fst x < next_ctr t).
  { intros x Hx. rewrite <- EL in Hx. exact (elem_order_below t obj x W Hx). }
  assert (NI : ~ In (next_id t) (L1 ++ L2)).
  { intros Hin. exact (N.lt_irrefl _ (proj2 (Old _ Hin))). }
  assert (Ord : elem_order (obj_ops (ops ++ [n]) obj) = L1 ++ next_id t :: L2).
  { rewrite elem_order_obj_snoc. cbn [op_obj op_insert n]. rewrite opid_eqb_refl, EL. apply (place_split L1 L2 n); [|exact Hr].
    intros Hin. exact (N.lt_irrefl _ (proj1 (Old head_id (in_or_app _ _ _ (or_introl Hin))))). }
  split; [exact NI|]. split; [exact Ord|].
  rewrite (seq_elems_splice ops _ obj L1 [next_id t] L2 Ord).
  - pose proof (reg_at_snoc_own ops n F) as Rn.
    rewrite (reg_at_fresh_slot ops n obj F : reg_at ops (op_obj n) (slot n) = []) in Rn.
    unfold gel at 2. cbn [flat_map]. rewrite (Rn : reg_at (ops ++ [n]) obj (KSeq (next_id t)) = own_reg n).
    destruct (own_reg n); [contradiction|reflexivity].
  - intros x Hx. apply reg_at_snoc_frame; [apply ssorted_nodup, (wf_tx_parts t W)|exact F|intros i []|].
    right. intros E. inversion E. subst x. exact (NI Hx).
Qed.

(* where an insert at [index] lands: behind the first [j] visible elements, the last of which is [ref]; in a
   list [j] is the index *)
Lemma query_insert_place e ty ops obj index ref idx j :
  NoDup (map op_id ops) -> query_insert e ty ops obj index = Some (ref, idx, j) ->
  (ty = OList -> j = N.to_nat index) /\
  exists L1 L2, elem_order (obj_ops ops obj) = L1 ++ L2 /\ ends_at ref L1 /\
    length (flat_map (gel ops obj) L1) = j.
Proof.
  intros ND Q. unfold query_insert in Q. destruct (index =? 0) eqn:I0.
  - apply N.eqb_eq in I0. inversion Q. subst. split; [reflexivity|].
    exists [], (elem_order (obj_ops ops obj)). unfold ends_at. auto.
  - destruct (seek (elem_w e ty) (seq_elems ops obj) (index - 1) 0 0) as [[[[[el r] s] wd] p]|] eqn:Sk; [|discriminate].
    inversion Q; subst ref idx j. split.
    + intros ->. apply N.eqb_neq in I0. rewrite (seek_unit _ _ _ _ _ _ _ _ (fun _ => eq_refl) Sk). lia.
    + destruct (seek_spec _ _ _ _ _ _ _ _ _ _ Sk) as (k & -> & Hk & _).
      destruct (seq_elems_at ops obj k el r ND Hk) as (L1 & L2 & EL & Nel & Len & Ge).
      exists (L1 ++ [el]), L2. split; [rewrite <- app_assoc; exact EL|]. split.
      * right. exists L1. split; [reflexivity|]. intros H. apply Nel, in_or_app. left. exact H.
      * rewrite flat_map_app, app_length, Len. cbn [flat_map]. rewrite Ge. apply Nat.add_1_r.
Qed.

Lemma do_insert_obs e t obj ty i a x t' :
  wf_tx t -> lookup_type (tx_all t) obj = Some ty -> is_seq_type ty = true ->
  (forall n, op_action n = a -> own_reg n = [(op_id n, x)]) ->
  drop_id (do_insert e t obj ty i a) = EOk t' ->
  let ob := observe (tx_all t) in
  let ob' := observe (tx_all t') in
  exists ref idx j,
    query_insert e ty (tx_all t) obj i = Some (ref, idx, j) /\
    (ty = OList -> j = N.to_nat i) /\
    obs_seq ob' obj = firstn j (obs_seq ob obj) ++ [[(next_id t, x)]] ++ skipn j (obs_seq ob obj) /\
    (forall obj', obj' <> obj -> obj' <> next_id t \/ (forall nt, a <> AMake nt) -> obs_obj ob' obj' = obs_obj ob obj').
Proof.
  intros W L Sq Own H. cbv zeta. apply drop_id_ok in H. destruct H as [oid H]. unfold do_insert in H.
  destruct (query_insert e ty (tx_all t) obj i) as [[[ref idx] j]|] eqn:Q; [|discriminate].
  inversion H; subst t' oid. clear H. exists ref, idx, j. split; [reflexivity|].
  destruct (wf_tx_parts t W) as (Srt & _).
  destruct (query_insert_place _ _ _ _ _ _ _ _ (ssorted_nodup _ Srt) Q) as (Hj & L1 & L2 & EL & Hr & Len).
  split; [exact Hj|].
  set (n := mkOp (next_id t) obj (KSeq ref) true a []).
  pose proof (Own n eq_refl : own_reg n = [(next_id t, x)]) as On.
  destruct (push_after t n obj ty W eq_refl L) as (S' & L' & Fo). split; [|exact Fo].
  destruct (seq_elems_insert t obj ref a L1 L2 W) as (_ & _ & E); [fold n; rewrite On; discriminate|exact EL|exact Hr|].
  rewrite (obs_seq_spec _ _ ty S' L' Sq), (obs_seq_spec _ _ ty Srt L Sq), tx_all_push.
  fold n in E. rewrite E, On, seq_elems_gel, EL, flat_map_app, !map_app, <- Len, <- (map_length snd).
  symmetry. apply (firstn_skipn_splice _ [] _ [_]).
Qed.

Theorem insert_spec e t obj ty i v t' :
  wf_tx t -> lookup_type (tx_all t) obj = Some ty -> is_seq_type ty = true ->
  step e t (CInsert obj i v) = EOk t' ->
  let ob := observe (tx_all t) in
  let ob' := observe (tx_all t') in
  exists ref idx j,
    query_insert e ty (tx_all t) obj i = Some (ref, idx, j) /\
    (ty = OList -> j = N.to_nat i) /\
    obs_seq ob' obj = firstn j (obs_seq ob obj) ++ [[(next_id t, scalar_vobs v)]] ++ skipn j (obs_seq ob obj) /\
    (forall obj', obj' <> obj -> obs_obj ob' obj' = obs_obj ob obj').
Proof.
  intros W L Sq H. unfold step, with_obj in H. rewrite L, Sq in H.
  destruct (do_insert_obs e t obj ty i (APut v) (scalar_vobs v) t' W L Sq) as (ref & idx & j & Q & Hj & Hs & Fo);
    [intros n E; unfold own_reg; rewrite E; reflexivity|exact H|].
  exists ref, idx, j. split; [exact Q|]. split; [exact Hj|]. split; [exact Hs|].
  intros obj' NE. apply Fo; [exact NE|right; discriminate].
Qed.

Lemma apply_call_error_unchanged e t c t' x :
  apply_call e t c = EOk (t', Some x) -> t' = t.
Proof.
  unfold apply_call. destruct (step e t c); intros H; inversion H; reflexivity.
Qed.

Lemma step_error_no_op e t c x : step e t c = EErr x -> apply_call e t c = EOk (t, Some x).
Proof. unfold apply_call. intros ->. reflexivity. Qed.

Theorem unknown_object_error e t c :
  lookup_type (tx_all t)
    (match c with
     | CPut o _ _ | CPutObj o _ _ | CInsert o _ _ | CInsertObj o _ _ | CDelete o _ | CInc o _ _
     | CSplice o _ _ _ | CSpliceText o _ _ _ => o end) = None ->
  step e t c = EErr EInvalidObj.
Proof. intros L. destruct c; cbn [step]; unfold with_obj; rewrite L; reflexivity. Qed.

Theorem wrong_key_kind_error e t obj :
  (forall k v, lookup_type (tx_all t) obj = Some OList -> step e t (CPut obj (PMap k) v) = EErr EInvalidOp) /\
  (forall i v, lookup_type (tx_all t) obj = Some OMap -> step e t (CPut obj (PSeq i) v) = EErr EInvalidOp) /\
  (forall i v, lookup_type (tx_all t) obj = Some OMap -> step e t (CInsert obj i v) = EErr EInvalidOp) /\
  (forall i nt, lookup_type (tx_all t) obj = Some OText -> step e t (CPutObj obj (PSeq i) nt) = EErr EInvalidOp) /\
  (forall i z, lookup_type (tx_all t) obj = Some OMap -> step e t (CInc obj (PSeq i) z) = EErr EInvalidOp) /\
  (forall i, lookup_type (tx_all t) obj = Some OMap -> step e t (CDelete obj (PSeq i)) = EErr EInvalidOp) /\
  (forall k, lookup_type (tx_all t) obj = Some OList -> step e t (CDelete obj (PMap k)) = EErr EInvalidOp) /\
  (forall k, lookup_type (tx_all t) obj = Some OText -> step e t (CDelete obj (PMap k)) = EErr EInvalidOp) /\
  (forall i d s, lookup_type (tx_all t) obj = Some OList -> step e t (CSpliceText obj i d s) = EErr EInvalidOp).
Proof.
  repeat split; intros; cbn [step]; unfold with_obj; rewrite H; reflexivity.
Qed.

Theorem index_out_of_range_error e t obj i :
  lookup_type (tx_all t) obj = Some OList ->
  N.of_nat (length (seq_elems (tx_all t) obj)) <= i ->
  (forall v, step e t (CPut obj (PSeq i) v) = EErr EInvalidIndex) /\
  (forall nt, step e t (CPutObj obj (PSeq i) nt) = EErr EInvalidIndex) /\
  (forall z, step e t (CInc obj (PSeq i) z) = EErr EInvalidIndex) /\
  step e t (CDelete obj (PSeq i)) = EErr EInvalidIndex /\
  (forall v, step e t (CInsert obj (i + 1) v) = EErr EInvalidIndex) /\
  (forall nt, step e t (CInsertObj obj (i + 1) nt) = EErr EInvalidIndex).
Proof.
  intros L Len.
  assert (Sk : seek (elem_w e OList) (seq_elems (tx_all t) obj) i 0 0 = None).
  { apply seek_none_iff; [apply N.le_0_l|]. rewrite unit_width_sum by reflexivity. exact Len. }
  assert (I1 : i + 1 =? 0 = false) by (apply N.eqb_neq; lia).
  repeat split; intros; cbn [step]; unfold with_obj; rewrite L; cbn [is_seq_type local_op];
    unfold local_list_op, do_insert, query_insert; cbn [is_seq_type negb];
    rewrite ?I1, ?N.add_sub, Sk; reflexivity.
Qed.

Theorem increment_non_counter_error e t obj k z :
  lookup_type (tx_all t) obj = Some OMap ->
  existsb is_vc (reg_at (tx_all t) obj (KMap k)) = false ->
  step e t (CInc obj (PMap k) z) = EErr EMissingCounter.
Proof.
  intros L Hc. cbn [step]. unfold with_obj. rewrite L. cbn [local_op]. unfold local_map_op, update_op.
  rewrite resolve_no_put by discriminate. cbn [is_inc_action andb]. rewrite Hc. reflexivity.
Qed.

(* editing calls only append pending ops, all by the transaction's actor *)
Definition Ext (t t' : tx) : Prop :=
  tx_base t' = tx_base t /\ tx_actor t' = tx_actor t /\ tx_start t' = tx_start t /\
  exists extra, tx_pending t' = tx_pending t ++ extra /\
                forall o, In o extra -> snd (op_id o) = tx_actor t.

Lemma Ext_refl t : Ext t t.
Proof. repeat split. exists []. rewrite app_nil_r. split; [reflexivity|intros o []]. Qed.

Lemma Ext_trans a b c : Ext a b -> Ext b c -> Ext a c.
Proof.
  intros (B1 & A1 & S1 & x1 & P1 & O1) (B2 & A2 & S2 & x2 & P2 & O2).
  repeat split; try congruence. exists (x1 ++ x2). split.
  - rewrite P2, P1, app_assoc. reflexivity.
  - intros o Ho. apply in_app_or in Ho. destruct Ho as [Ho|Ho]; [apply O1, Ho|rewrite <- A1; apply O2, Ho].
Qed.

Lemma Ext_push t o : snd (op_id o) = tx_actor t -> Ext t (push t o).
Proof.
  intros H. unfold push. repeat split; cbn. exists [o]. split; [reflexivity|].
  intros o' [<-|[]]. exact H.
Qed.

Lemma Ext_update_op t obj k r a t' oid : update_op t obj k r a = EOk (t', oid) -> Ext t t'.
Proof.
  intros H. destruct (update_op_inv _ _ _ _ _ _ _ H) as [(_ & -> & _)|(a' & r' & _ & _ & -> & _)].
  - apply Ext_refl.
  - apply Ext_push. reflexivity.
Qed.

Lemma Ext_drop_id_local e t obj ty p a t' : drop_id (local_op e t obj ty p a) = EOk t' -> Ext t t'.
Proof.
  intros H. apply drop_id_ok in H. destruct H as [oid H]. destruct p as [k|i]; cbn [local_op] in H.
  - exact (Ext_update_op _ _ _ _ _ _ _ H).
  - destruct (list_update_spec _ _ _ _ _ _ _ _ H) as (el & r & s & wd & p & _ & _ & _ & U).
    exact (Ext_update_op _ _ _ _ _ _ _ U).
Qed.

Lemma Ext_do_insert e t obj ty i a t' : drop_id (do_insert e t obj ty i a) = EOk t' -> Ext t t'.
Proof.
  intros H. apply drop_id_ok in H. destruct H as [y H]. unfold do_insert in H.
  destruct (query_insert e ty (tx_all t) obj i) as [[[rf ?] ?]|]; [|discriminate].
  inversion H; subst. apply Ext_push. reflexivity.
Qed.

Lemma Ext_insert_chain acts : forall t obj rf, Ext t (insert_chain t obj rf acts).
Proof.
  induction acts as [|a rest IH]; intros t obj rf; cbn [insert_chain]; [apply Ext_refl|].
  eapply Ext_trans; [apply (Ext_push t (mkOp (next_id t) obj (KSeq rf) true a [])); reflexivity|apply IH].
Qed.

Lemma Ext_del_loop fuel : forall e t obj ty di deleted del t',
  del_loop fuel e t obj ty di deleted del = EOk t' -> Ext t t'.
Proof.
  induction fuel as [|f IH]; intros e t obj ty di deleted del t' H; cbn [del_loop] in H; [discriminate|].
  destruct (deleted <? del); [|inversion H; subst; apply Ext_refl].
  destruct (seek _ _ _ _ _) as [[[[[el r] s] w] ?]|]; [|inversion H; subst; apply Ext_refl].
  destruct (s <? di).
  - eapply IH. exact H.
  - eapply Ext_trans; [apply (Ext_push t (mkOp (next_id t) obj (KSeq el) false ADel (map fst r))); reflexivity|eapply IH; exact H].
Qed.

Lemma Ext_inner_splice e t obj ty index del acts t' :
  inner_splice e t obj ty index del acts = EOk t' -> Ext t t'.
Proof.
  unfold inner_splice.
  destruct (if (del <? 0)%Z then _ else _) as [[index' del']|]; [|discriminate].
  destruct acts as [|a rest].
  - apply Ext_del_loop.
  - destruct (query_insert e ty (tx_all t) obj index') as [[[rf idx] ?]|]; [|discriminate].
    intros H. eapply Ext_trans; [apply Ext_insert_chain|eapply Ext_del_loop; exact H].
Qed.

Lemma Ext_step e t c t' : step e t c = EOk t' -> Ext t t'.
Proof.
  destruct c as [obj p v|obj p nt|obj i v|obj i nt|obj p|obj p z|obj i del vs|obj i del s];
    cbn [step]; unfold with_obj; destruct (lookup_type (tx_all t) obj) as [oty|]; try discriminate.
  - destruct p, oty; try discriminate; apply Ext_drop_id_local.
  - destruct p, oty; try discriminate; apply Ext_drop_id_local.
  - destruct (is_seq_type oty); [apply Ext_do_insert|discriminate].
  - destruct (is_seq_type oty); [apply Ext_do_insert|discriminate].
  - destruct p, oty; try discriminate; try apply Ext_drop_id_local.
    destruct (seq_width e OText (seq_elems (tx_all t) obj) <=? i); [discriminate|apply Ext_inner_splice].
  - apply Ext_drop_id_local.
  - destruct oty; try discriminate; [apply Ext_inner_splice|].
    destruct (splice_text_of vs); [apply Ext_inner_splice|discriminate].
  - destruct oty; try discriminate. apply Ext_inner_splice.
Qed.

Lemma Ext_apply_call e t c t' s : apply_call e t c = EOk (t', s) -> Ext t t'.
Proof.
  unfold apply_call. destruct (step e t c) as [t1|x|] eqn:E; intros H; inversion H; subst.
  - eapply Ext_step. exact E.
  - apply Ext_refl.
Qed.
