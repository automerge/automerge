(* Proofs about Crdt/Patch.v (C08, C09).  [diff_apply]: by induction on the target view; at a map or list
   node the node's own actions first produce the target's entries over the values [base_of] says they
   leave ([mid_map], [lmid]), then each child's patches, pushed under its key or index, finish its entry.
   Frame and shell of the applier come from one inversion of a step along the path ([apply_at_step]).
   Last, the patch a local map update reports ([local_patch_sound_map], C09) and the case in which it
   is wrong ([local_increment_conflict_refuted]). *)
From Coq Require Import Sorting.Sorted.
From AM Require Import Base.Prelude Base.Order Crdt.Types Crdt.Interp Crdt.InterpProofs Crdt.Local Crdt.LocalProofs Crdt.Patch.
Local Open Scope N_scope.

Lemma keqb_spec a b : keqb a b = true <-> a = b.
Proof. apply eqb_of_spec, bytes_cmp_total. Qed.

Lemma keqb_refl a : keqb a a = true.
Proof. apply keqb_spec. reflexivity. Qed.

Lemma keqb_false a b : keqb a b = false <-> a <> b.
Proof. rewrite <- keqb_spec. symmetry. apply not_true_iff_false. Qed.

Lemma keqb_sym a b : keqb a b = keqb b a.
Proof.
  destruct (keqb b a) eqn:E.
  - apply keqb_spec in E. subst. apply keqb_refl.
  - apply keqb_false. intros ->. rewrite keqb_refl in E. discriminate.
Qed.

Section ViewInd.
  Variable P : view -> Prop.
  Hypothesis Hs : forall s, P (VScalar s).
  Hypothesis Hm : forall id m, Forall (fun ke => P (fst (snd ke))) m -> P (VMap id m).
  Hypothesis Hl : forall id l, Forall (fun en => P (fst en)) l -> P (VList id l).
  Hypothesis Ht : forall id u, P (VText id u).

  Fixpoint view_ind2 (v : view) : P v :=
    match v with
    | VScalar s => Hs s
    | VMap id m =>
      Hm id m ((fix go (m : vmap) : Forall (fun ke => P (fst (snd ke))) m :=
                  match m with
                  | [] => Forall_nil _
                  | (k, (c, f)) :: t => Forall_cons (k, (c, f)) (view_ind2 c) (go t)
                  end) m)
    | VList id l =>
      Hl id l ((fix go (l : list ventry) : Forall (fun en => P (fst en)) l :=
                  match l with
                  | [] => Forall_nil _
                  | (c, f) :: t => Forall_cons (c, f) (view_ind2 c) (go t)
                  end) l)
    | VText id u => Ht id u
    end.
End ViewInd.

Lemma apply_patches_app e p1 p2 v :
  apply_patches e (p1 ++ p2) v =
  match apply_patches e p1 v with Some v' => apply_patches e p2 v' | None => None end.
Proof.
  revert v. induction p1 as [|p t IH]; intros v; cbn [app apply_patches]; [reflexivity|].
  destruct (apply_patch e v p) as [v'|]; [apply IH|reflexivity].
Qed.

Lemma apply_patches_app_some e p1 p2 v v1 v2 :
  apply_patches e p1 v = Some v1 -> apply_patches e p2 v1 = Some v2 ->
  apply_patches e (p1 ++ p2) v = Some v2.
Proof. intros H1 H2. rewrite apply_patches_app, H1. exact H2. Qed.

Lemma same_shell_id a b : same_shell a b = true -> view_id a = view_id b.
Proof.
  destruct a, b; cbn; try discriminate; intros H; try (apply opid_eqb_spec in H; subst); reflexivity.
Qed.

Lemma apply_action_shell e v a v' : apply_action e v a = Some v' -> same_shell v v' = true.
Proof.
  (* every branch that succeeds rebuilds the node under its own constructor and id *)
  destruct v as [s|id m|id l|id u]; [discriminate| | |];
    destruct a as [k pv c|i pv c|i vs|i x|[k|i] z|[k|i]|k|i n|ms]; cbn [apply_action]; try discriminate;
    repeat match goal with
           | |- context [match ?x with Some _ => _ | None => _ end] => destruct x; [|discriminate]
           end;
    intros H; inversion H; apply opid_eqb_refl.
Qed.

Fixpoint apply_actions (e : enc) (v : view) (acts : list paction) : option view :=
  match acts with
  | [] => Some v
  | a :: t => match apply_action e v a with Some v' => apply_actions e v' t | None => None end
  end.

Lemma apply_actions_app e v a1 a2 :
  apply_actions e v (a1 ++ a2) =
  match apply_actions e v a1 with Some v' => apply_actions e v' a2 | None => None end.
Proof.
  revert v. induction a1 as [|a t IH]; intros v; cbn [app apply_actions]; [reflexivity|].
  destruct (apply_action e v a); [apply IH|reflexivity].
Qed.

Lemma apply_here e id acts : forall v,
  id_is v id = true ->
  apply_patches e (map (here id) acts) v = apply_actions e v acts.
Proof.
  induction acts as [|a t IH]; intros v Hid; cbn [map apply_patches apply_actions]; [reflexivity|].
  unfold apply_patch. cbn [here p_path p_obj p_action apply_at]. rewrite Hid.
  destruct (apply_action e v a) as [v'|] eqn:E; [|reflexivity].
  apply IH. unfold id_is in *. rewrite <- (same_shell_id _ _ (apply_action_shell _ _ _ _ E)). exact Hid.
Qed.

Section Assoc.
  Context {V : Type}.
  Implicit Types m : list (list N * V).

  Lemma mlookup_mupsert k e m k' :
    mlookup k' (mupsert k e m) = if keqb k' k then Some e else mlookup k' m.
  Proof.
    induction m as [|[k0 e0] t IH]; cbn [mupsert mlookup]; [reflexivity|].
    destruct (bytes_cmp k k0) eqn:C; cbn [mlookup].
    - apply (cmp_eq bytes_cmp_total) in C. subst k0.
      destruct (keqb k' k); reflexivity.
    - reflexivity.
    - rewrite IH. destruct (keqb k' k0) eqn:E0; [|reflexivity].
      apply keqb_spec in E0. subst k0.
      destruct (keqb k' k) eqn:E1; [|reflexivity].
      apply keqb_spec in E1. subst k'. rewrite (cmp_refl _ bytes_cmp_total) in C. discriminate.
  Qed.

  Lemma mlookup_mremove k m k' :
    mlookup k' (mremove k m) = if keqb k' k then None else mlookup k' m.
  Proof.
    induction m as [|[k0 e0] t IH]; cbn [mremove mlookup].
    - destruct (keqb k' k); reflexivity.
    - destruct (keqb k k0) eqn:E.
      + apply keqb_spec in E. subst k0. rewrite IH. destruct (keqb k' k); reflexivity.
      + cbn [mlookup]. rewrite IH. destruct (keqb k' k0) eqn:E0; [|reflexivity].
        apply keqb_spec in E0. subst k0. rewrite keqb_sym, E. reflexivity.
  Qed.

  Lemma mlookup_mset k e m k' :
    mlookup k' (mset k e m) =
    if keqb k' k then match mlookup k m with Some _ => Some e | None => None end else mlookup k' m.
  Proof.
    induction m as [|[k0 e0] t IH]; cbn [mset mlookup].
    - destruct (keqb k' k); reflexivity.
    - destruct (keqb k k0) eqn:E; cbn [mlookup].
      + apply keqb_spec in E. subst k0. destruct (keqb k' k); reflexivity.
      + rewrite IH. destruct (keqb k' k0) eqn:E0; [|reflexivity].
        apply keqb_spec in E0. subst k0. rewrite keqb_sym, E. reflexivity.
  Qed.

  Lemma mlookup_mupsert_other k e m k' : k' <> k -> mlookup k' (mupsert k e m) = mlookup k' m.
  Proof. intros H. rewrite mlookup_mupsert, (proj2 (keqb_false k' k) H). reflexivity. Qed.

  Lemma mlookup_mremove_other k m k' : k' <> k -> mlookup k' (mremove k m) = mlookup k' m.
  Proof. intros H. rewrite mlookup_mremove, (proj2 (keqb_false k' k) H). reflexivity. Qed.

  Lemma mlookup_mset_other k e m k' : k' <> k -> mlookup k' (mset k e m) = mlookup k' m.
  Proof. intros H. rewrite mlookup_mset, (proj2 (keqb_false k' k) H). reflexivity. Qed.

  (* keys strictly ascending: a property of the keys alone *)
  Definition KS m : Prop := StronglySorted (Order.lt bytes_cmp) (map fst m).

  Lemma KS_below k k0 e0 m : KS ((k0, e0) :: m) -> bytes_cmp k k0 = Lt ->
    Forall (Order.lt bytes_cmp k) (map fst ((k0, e0) :: m)).
  Proof.
    intros S C. inversion S as [|? ? _ A]; subst. constructor; [exact C|].
    eapply Forall_impl; [|exact A]. intros k'. exact (cmp_trans bytes_cmp_total _ _ _ C).
  Qed.

  Lemma keys_sorted_KS m : keys_sorted m = true -> KS m.
  Proof.
    induction m as [|[k e] t IH]; cbn [keys_sorted]; intros H; [constructor|].
    apply andb_true_iff in H. destruct H as [H1 H2]. specialize (IH H2).
    constructor; [exact IH|]. cbn [fst].
    destruct t as [|[k1 e1] t1]; [constructor|].
    apply KS_below; [exact IH|]. unfold ltb in H1. destruct (bytes_cmp k k1); congruence.
  Qed.

  Lemma mlookup_above k m : Forall (Order.lt bytes_cmp k) (map fst m) -> mlookup k m = None.
  Proof.
    induction m as [|[k0 e0] t IH]; cbn [map fst mlookup]; intros H; [reflexivity|].
    inversion H as [|? ? C H']; subst. destruct (keqb k k0) eqn:E; [|exact (IH H')].
    apply keqb_spec in E. subst k0. unfold Order.lt in C.
    rewrite (cmp_refl _ bytes_cmp_total) in C. discriminate.
  Qed.

  Lemma mlookup_In k m x : mlookup k m = Some x -> In (k, x) m.
  Proof.
    induction m as [|[k0 e0] t IH]; cbn [mlookup]; [discriminate|].
    destruct (keqb k k0) eqn:E.
    - apply keqb_spec in E. subst. intros H; inversion H; subst. left. reflexivity.
    - intros H. right. apply IH, H.
  Qed.

  Lemma KS_ext m1 : forall m2, KS m1 -> KS m2 -> (forall k, mlookup k m1 = mlookup k m2) -> m1 = m2.
  Proof.
    induction m1 as [|[k1 e1] t1 IH]; intros [|[k2 e2] t2] S1 S2 H.
    - reflexivity.
    - specialize (H k2). cbn [mlookup] in H. rewrite keqb_refl in H. discriminate.
    - specialize (H k1). cbn [mlookup] in H. rewrite keqb_refl in H. discriminate.
    - inversion S1 as [|? ? S1' A1]; subst. inversion S2 as [|? ? S2' A2]; subst.
      destruct (bytes_cmp k1 k2) eqn:C.
      + apply (cmp_eq bytes_cmp_total) in C. subst k2.
        pose proof (H k1) as H1. cbn [mlookup] in H1. rewrite keqb_refl in H1. inversion H1; subst e2.
        f_equal. apply IH; [exact S1'|exact S2'|].
        intros k. destruct (keqb k k1) eqn:E.
        * apply keqb_spec in E. subst k. rewrite (mlookup_above _ _ A1), (mlookup_above _ _ A2). reflexivity.
        * specialize (H k). cbn [mlookup] in H. rewrite E in H. exact H.
      + specialize (H k1). rewrite (mlookup_above _ _ (KS_below _ _ _ _ S2 C)) in H.
        cbn [mlookup] in H. rewrite keqb_refl in H. discriminate.
      + apply (cmp_gt_lt _ bytes_cmp_total) in C.
        specialize (H k2). rewrite (mlookup_above _ _ (KS_below _ _ _ _ S1 C)) in H.
        cbn [mlookup] in H. rewrite keqb_refl in H. discriminate.
  Qed.

  Lemma Forall_keys_mupsert (P : list N -> Prop) k e m :
    P k -> Forall P (map fst m) -> Forall P (map fst (mupsert k e m)).
  Proof.
    intros Hk. induction m as [|[k0 e0] t IH]; cbn [mupsert map fst]; intros H.
    - constructor; [exact Hk|constructor].
    - inversion H as [|? ? H0 Ht]; subst.
      destruct (bytes_cmp k k0); cbn [map fst]; constructor; auto.
  Qed.

  Lemma KS_mupsert k e m : KS m -> KS (mupsert k e m).
  Proof.
    induction m as [|[k0 e0] t IH]; intros S; cbn [mupsert].
    - repeat constructor.
    - inversion S as [|? ? S' A]; subst. destruct (bytes_cmp k k0) eqn:C.
      + apply (cmp_eq bytes_cmp_total) in C. subst k0. constructor; assumption.
      + constructor; [exact S|apply KS_below; assumption].
      + constructor; [apply IH, S'|].
        apply Forall_keys_mupsert; [apply (cmp_gt_lt _ bytes_cmp_total), C|exact A].
  Qed.

  Lemma Forall_keys_mremove (P : list N -> Prop) k m :
    Forall P (map fst m) -> Forall P (map fst (mremove k m)).
  Proof.
    induction m as [|[k0 e0] t IH]; cbn [mremove map fst]; intros H; [exact H|].
    inversion H; subst. destruct (keqb k k0); [|constructor]; auto.
  Qed.

  Lemma KS_mremove k m : KS m -> KS (mremove k m).
  Proof.
    induction m as [|[k0 e0] t IH]; intros S; cbn [mremove]; [exact S|].
    inversion S as [|? ? S' A]; subst. destruct (keqb k k0); [apply IH, S'|].
    constructor; [apply IH, S'|apply Forall_keys_mremove, A].
  Qed.

  Lemma keys_mset k e m : map fst (mset k e m) = map fst m.
  Proof.
    induction m as [|[k0 e0] t IH]; cbn [mset]; [reflexivity|].
    destruct (keqb k k0); cbn [map fst]; [reflexivity|]. rewrite IH. reflexivity.
  Qed.

  Lemma KS_mset k e m : KS m -> KS (mset k e m).
  Proof. unfold KS. rewrite keys_mset. exact (fun S => S). Qed.

  Lemma KS_NoDup m : KS m -> NoDup (map fst m).
  Proof.
    unfold KS. generalize (map fst m). induction 1 as [|k ks _ IH A]; constructor; [|exact IH].
    intros Hin. rewrite Forall_forall in A. specialize (A k Hin). unfold Order.lt in A.
    rewrite (cmp_refl _ bytes_cmp_total) in A. discriminate.
  Qed.

  Lemma mlookup_app_none k m1 m2 : mlookup k m1 = None -> mlookup k (m1 ++ m2) = mlookup k m2.
  Proof.
    induction m1 as [|[k0 e0] t IH]; cbn [app mlookup]; [reflexivity|].
    destruct (keqb k k0); [discriminate|]. exact IH.
  Qed.

  Lemma mset_app_none k e m1 m2 : mlookup k m1 = None -> mset k e (m1 ++ m2) = m1 ++ mset k e m2.
  Proof.
    induction m1 as [|[k0 e0] t IH]; cbn [app mset mlookup]; [reflexivity|].
    destruct (keqb k k0); [discriminate|]. intros H. rewrite IH by exact H. reflexivity.
  Qed.

  Lemma KS_app_lookup_none pre k x t : KS (pre ++ (k, x) :: t) -> mlookup k pre = None.
  Proof.
    intros S. apply KS_NoDup in S. rewrite map_app in S. apply NoDup_remove_2 in S.
    destruct (mlookup k pre) as [y|] eqn:L; [|reflexivity].
    destruct S. apply in_or_app. left. exact (in_map fst _ _ (mlookup_In _ _ _ L)).
  Qed.

  Lemma mset_mset k e1 e2 m : mset k e2 (mset k e1 m) = mset k e2 m.
  Proof.
    induction m as [|[k0 e0] t IH]; cbn [mset]; [reflexivity|].
    destruct (keqb k k0) eqn:E; cbn [mset]; rewrite E; [reflexivity|]. rewrite IH. reflexivity.
  Qed.

  Lemma mset_same k e m : mlookup k m = Some e -> mset k e m = m.
  Proof.
    induction m as [|[k0 e0] t IH]; cbn [mset mlookup]; [reflexivity|].
    destruct (keqb k k0); [intros H; inversion H; reflexivity|]. intros H. rewrite IH by exact H. reflexivity.
  Qed.
End Assoc.

Section Seq.
  Context {A : Type}.
  Implicit Types l pre : list A.

  Lemma get_at_nth i l : get_at i l = nth_error l (N.to_nat i).
  Proof.
    unfold get_at. destruct (N.ltb_spec i (N.of_nat (length l))) as [_|H]; [reflexivity|].
    symmetry. apply nth_error_None. lia.
  Qed.

  Lemma get_at_split i l x : get_at i l = Some x -> exists pre t, l = pre ++ x :: t /\ i = N.of_nat (length pre).
  Proof.
    rewrite get_at_nth. intros H. apply nth_error_split in H. destruct H as (pre & t & -> & E).
    exists pre, t. split; [reflexivity|lia].
  Qed.

  Lemma get_at_app pre x t : get_at (N.of_nat (length pre)) (pre ++ x :: t) = Some x.
  Proof. rewrite get_at_nth, Nnat.Nat2N.id, nth_error_app2, Nat.sub_diag by apply le_n. reflexivity. Qed.

  Lemma nth_error_app_ne pre x y t : forall n, n <> length pre ->
    nth_error (pre ++ x :: t) n = nth_error (pre ++ y :: t) n.
  Proof.
    induction pre as [|a pre IH]; intros [|n] H; cbn [app length nth_error] in *;
      [contradiction|reflexivity|reflexivity|apply IH; lia].
  Qed.

  Lemma get_at_app_ne j pre x y t : j <> N.of_nat (length pre) ->
    get_at j (pre ++ x :: t) = get_at j (pre ++ y :: t).
  Proof. intros H. rewrite !get_at_nth. apply nth_error_app_ne. lia. Qed.

  Lemma set_at_app pre x y t : set_at (N.of_nat (length pre)) y (pre ++ x :: t) = pre ++ y :: t.
  Proof.
    unfold set_at. rewrite Nnat.Nat2N.id.
    rewrite firstn_app, firstn_all, Nat.sub_diag. cbn [firstn]. rewrite app_nil_r.
    rewrite skipn_app. replace (S (length pre) - length pre)%nat with 1%nat by lia.
    rewrite skipn_all2 by lia. reflexivity.
  Qed.

  Lemma insert_at_end pre xs : insert_at (N.of_nat (length pre)) xs pre = Some (pre ++ xs).
  Proof.
    unfold insert_at. rewrite N.leb_refl, Nnat.Nat2N.id, firstn_all, skipn_all, app_nil_r. reflexivity.
  Qed.

  Lemma delete_at_tail pre l :
    delete_at (N.of_nat (length pre)) (N.of_nat (length l)) (pre ++ l) = Some pre.
  Proof.
    unfold delete_at. rewrite app_length.
    destruct (N.leb_spec (N.of_nat (length pre) + N.of_nat (length l)) (N.of_nat (length pre + length l))) as [_|H]; [|lia].
    rewrite Nnat.Nat2N.id, firstn_app, firstn_all, Nat.sub_diag. cbn [firstn]. rewrite app_nil_r.
    replace (N.to_nat (N.of_nat (length pre) + N.of_nat (length l))) with (length (pre ++ l))
      by (rewrite app_length; lia).
    rewrite skipn_all, app_nil_r. reflexivity.
  Qed.
End Seq.

Lemma same_shell_empty_like c : same_shell (empty_like c) c = true.
Proof.
  destruct c as [s|id m|id l|id u]; cbn; try apply opid_eqb_refl. apply scalar_eqb_spec. reflexivity.
Qed.

Lemma wf_node_empty_like c : wf_node (empty_like c) = true.
Proof. destruct c; reflexivity. Qed.

Lemma wf_node_map id m :
  wf_node (VMap id m) = true <->
  keys_sorted m = true /\ Forall (fun ke => wf_node (fst (snd ke)) = true) m.
Proof.
  cbn [wf_node]. rewrite andb_true_iff. apply and_iff_compat_l.
  induction m as [|[k [c f]] t IH]; [split; constructor|].
  rewrite andb_true_iff, IH, Forall_cons_iff. reflexivity.
Qed.

Lemma wf_node_list id l :
  wf_node (VList id l) = true <-> Forall (fun en => wf_node (fst en) = true) l.
Proof.
  cbn [wf_node].
  induction l as [|[c f] t IH]; [split; constructor|].
  rewrite andb_true_iff, IH, Forall_cons_iff. reflexivity.
Qed.

Lemma base_same_shell old c2 f2 : same_shell (base_of old c2 f2) c2 = true.
Proof.
  unfold base_of. destruct (keeps old c2 f2) eqn:K; [|apply same_shell_empty_like].
  destruct old as [[c1 f1]|]; [|discriminate]. cbn [keeps] in K.
  apply andb_true_iff in K. apply K.
Qed.

Lemma base_scalar old s f2 : base_of old (VScalar s) f2 = VScalar s.
Proof.
  pose proof (base_same_shell old (VScalar s) f2) as H.
  destruct (base_of old (VScalar s) f2); cbn in H; try discriminate.
  apply scalar_eqb_spec in H. subst. reflexivity.
Qed.

Lemma entry_actions_cases p old c2 f2 :
  (exists c1 f1, old = Some (c1, f1) /\ implb f1 f2 = true /\
     (entry_actions p old c2 f2 = flag_patch p old f2 /\ base_of old c2 f2 = c1 \/
      exists d, entry_actions p old c2 f2 = Increment p d :: flag_patch p old f2 /\
                inc_entry d (c1, f1) = Some (base_of old c2 f2, f1))) \/
  entry_actions p old c2 f2 = [put_action p c2 f2] /\ base_of old c2 f2 = empty_like c2.
Proof.
  unfold entry_actions, base_of. destruct (keeps old c2 f2) eqn:K.
  - destruct old as [[c1 f1]|]; [|discriminate]. apply andb_true_iff in K.
    left. exists c1, f1. split; [reflexivity|]. split; [apply K|]. left. split; reflexivity.
  - destruct (increments old c2 f2) as [d|] eqn:I; [|right; split; reflexivity].
    destruct old as [[c1 f1]|]; [|discriminate]. cbn [increments] in I.
    destruct (implb f1 f2) eqn:Hf; [|discriminate].
    destruct c1 as [[| | | | | | |x| |]| | |]; try discriminate.
    destruct c2 as [[| | | | | | |y| |]| | |]; try discriminate.
    inversion I. left. exists (VScalar (SCounter x)), f1. split; [reflexivity|]. split; [exact Hf|].
    right. exists (y - x)%Z. split; [reflexivity|]. cbn. repeat f_equal. lia.
Qed.

Lemma flag_patch_map e id k m c c0 f1 f2 :
  mlookup k m = Some (c, f1) -> implb f1 f2 = true ->
  apply_actions e (VMap id m) (flag_patch (PMap k) (Some (c0, f1)) f2) = Some (VMap id (mset k (c, f2) m)).
Proof.
  intros L Hf. destruct f1, f2; try discriminate Hf; cbn [flag_patch negb andb apply_actions apply_action];
    rewrite ?L, ?mset_same by exact L; reflexivity.
Qed.

Lemma flag_patch_list e id pre c c0 f1 f2 t :
  implb f1 f2 = true ->
  apply_actions e (VList id (pre ++ (c, f1) :: t)) (flag_patch (PSeq (N.of_nat (length pre))) (Some (c0, f1)) f2)
  = Some (VList id (pre ++ (c, f2) :: t)).
Proof.
  intros Hf. destruct f1, f2; try discriminate Hf; cbn [flag_patch negb andb apply_actions apply_action];
    rewrite ?get_at_app, ?set_at_app; reflexivity.
Qed.

Lemma map_entry_actions e id k old c2 f2 m :
  mlookup k m = old ->
  exists m',
    apply_actions e (VMap id m) (entry_actions (PMap k) old c2 f2) = Some (VMap id m') /\
    mlookup k m' = Some (base_of old c2 f2, f2) /\
    (forall k', k' <> k -> mlookup k' m' = mlookup k' m) /\
    (KS m -> KS m').
Proof.
  intros Hold.
  destruct (entry_actions_cases (PMap k) old c2 f2) as [(c1 & f1 & -> & Hf & H)|[-> ->]].
  - assert (L : forall x, mlookup k (mset k x m) = Some x)
      by (intro; rewrite mlookup_mset, keqb_refl, Hold; reflexivity).
    exists (mset k (base_of (Some (c1, f1)) c2 f2, f2) m).
    refine (conj _ (conj (L _) (conj (fun _ => mlookup_mset_other _ _ _ _) (KS_mset _ _ _)))).
    destruct H as [[-> ->]|(d & -> & Hi)]; [exact (flag_patch_map _ _ _ _ _ _ _ _ Hold Hf)|].
    cbn [apply_actions apply_action]. rewrite Hold, Hi.
    rewrite (flag_patch_map e id k _ _ c1 f1 f2 (L _) Hf), mset_mset. reflexivity.
  - exists (mupsert k (empty_like c2, f2) m).
    refine (conj eq_refl (conj _ (conj (fun _ => mlookup_mupsert_other _ _ _ _) (KS_mupsert _ _ _)))).
    rewrite mlookup_mupsert, keqb_refl. reflexivity.
Qed.

Lemma map_dels e id ks : forall m,
  exists m',
    apply_actions e (VMap id m) (map DeleteMap ks) = Some (VMap id m') /\
    (forall k, mlookup k m' = if existsb (keqb k) ks then None else mlookup k m) /\
    (KS m -> KS m').
Proof.
  induction ks as [|k0 t IH]; intros m; cbn [map apply_actions apply_action].
  - exists m. split; [reflexivity|]. split; [intros k; reflexivity|auto].
  - destruct (IH (mremove k0 m)) as [m' [A [L S]]]. exists m'. split; [exact A|]. split.
    + intros k. rewrite L, mlookup_mremove. cbn [existsb].
      destruct (keqb k k0); cbn [orb]; [destruct (existsb (keqb k) t); reflexivity|reflexivity].
    + intros H. apply S, KS_mremove, H.
Qed.

Lemma In_keys_lookup {V} k (m : list (list N * V)) : In k (map fst m) -> mlookup k m <> None.
Proof.
  induction m as [|[k0 e0] t IH]; cbn [map fst In mlookup]; [intros []|].
  intros [H|H].
  - subst. rewrite keqb_refl. discriminate.
  - destruct (keqb k k0); [discriminate|]. apply IH, H.
Qed.

Lemma lookup_In_keys {V} k (m : list (list N * V)) x : mlookup k m = Some x -> In k (map fst m).
Proof. intros H. apply mlookup_In in H. apply (in_map fst) in H. exact H. Qed.

Lemma map_puts e id m1 es : forall m,
  NoDup (map fst es) ->
  (forall k, In k (map fst es) -> mlookup k m = mlookup k m1) ->
  exists m',
    apply_actions e (VMap id m)
      (flat_map (fun ke => entry_actions (PMap (fst ke)) (mlookup (fst ke) m1) (fst (snd ke)) (snd (snd ke))) es)
    = Some (VMap id m') /\
    (forall k c2 f2, In (k, (c2, f2)) es -> mlookup k m' = Some (base_of (mlookup k m1) c2 f2, f2)) /\
    (forall k, ~ In k (map fst es) -> mlookup k m' = mlookup k m) /\
    (KS m -> KS m').
Proof.
  induction es as [|[k [c2 f2]] t IH]; intros m ND Hm; cbn [flat_map fst snd].
  - exists m. split; [reflexivity|]. split; [intros ? ? ? []|]. split; auto.
  - cbn [map fst] in ND. inversion ND as [|? ? Hnk ND']; subst.
    destruct (map_entry_actions e id k (mlookup k m1) c2 f2 m) as [ma [A [La [Lo Sa]]]].
    { apply Hm. left. reflexivity. }
    destruct (IH ma ND') as [m' [A' [L' [Lo' S']]]].
    { intros k' Hin. rewrite Lo; [apply Hm; right; exact Hin|]. intros ->. contradiction. }
    exists m'. split; [rewrite apply_actions_app, A; exact A'|]. split; [|split].
    + intros k' c' f' [H|H].
      * inversion H; subst. rewrite Lo' by exact Hnk. exact La.
      * apply L', H.
    + intros k' Hn. cbn [map fst In] in Hn. rewrite Lo'; [|tauto]. apply Lo. intros ->. tauto.
    + intros H. apply S', Sa, H.
Qed.

Definition mid_map (m1 m2 : vmap) : vmap :=
  map (fun ke => (fst ke, (base_of (mlookup (fst ke) m1) (fst (snd ke)) (snd (snd ke)), snd (snd ke)))) m2.

Lemma mlookup_mid m1 m2 k :
  mlookup k (mid_map m1 m2) =
  match mlookup k m2 with
  | Some (c2, f2) => Some (base_of (mlookup k m1) c2 f2, f2)
  | None => None
  end.
Proof.
  unfold mid_map. induction m2 as [|[k0 [c f]] t IH]; cbn [map mlookup fst snd]; [reflexivity|].
  destruct (keqb k k0) eqn:E; [|exact IH]. apply keqb_spec in E. subst. reflexivity.
Qed.

Lemma KS_mid m1 m2 : KS m2 -> KS (mid_map m1 m2).
Proof. unfold KS, mid_map. rewrite map_map. exact (fun S => S). Qed.

Lemma in_dkeys m1 m2 k :
  existsb (keqb k) (dkeys m1 m2) = match mlookup k m1, mlookup k m2 with Some _, None => true | _, _ => false end.
Proof.
  unfold dkeys. induction m1 as [|[k0 e0] t IH]; cbn [flat_map mlookup fst]; [reflexivity|].
  rewrite existsb_app, IH. destruct (keqb k k0) eqn:E.
  - apply keqb_spec in E. subst k0. destruct (mlookup k m2); cbn [existsb]; [|rewrite keqb_refl; reflexivity].
    destruct (mlookup k t); reflexivity.
  - destruct (mlookup k0 m2); cbn [existsb]; [|rewrite E]; reflexivity.
Qed.

Lemma map_shallow e id m1 m2 :
  KS m1 -> KS m2 ->
  apply_actions e (VMap id m1) (map_actions m1 m2) = Some (VMap id (mid_map m1 m2)).
Proof.
  intros S1 S2. unfold map_actions. rewrite apply_actions_app.
  destruct (map_dels e id (dkeys m1 m2) m1) as [md [A [L S]]]. rewrite A.
  (* the deletions leave m1 restricted to the keys of m2 *)
  assert (Lr : forall k, mlookup k md = match mlookup k m2 with Some _ => mlookup k m1 | None => None end).
  { intros k. rewrite L, in_dkeys. destruct (mlookup k m1), (mlookup k m2); reflexivity. }
  assert (Hk : forall k, In k (map fst m2) -> mlookup k md = mlookup k m1).
  { intros k Hin. rewrite Lr. destruct (mlookup k m2) eqn:E; [reflexivity|].
    apply In_keys_lookup in Hin. contradiction. }
  destruct (map_puts e id m1 m2 md (KS_NoDup _ S2) Hk) as [m' [A' [L' [Lo' S']]]].
  rewrite A'. do 2 f_equal.
  apply KS_ext; [apply S', S, S1|apply KS_mid, S2|].
  intros k. rewrite mlookup_mid. destruct (mlookup k m2) as [[c2 f2]|] eqn:E2.
  - apply L'. apply mlookup_In, E2.
  - rewrite Lo'; [rewrite Lr, E2; reflexivity|].
    intros Hin. apply In_keys_lookup in Hin. contradiction.
Qed.

Lemma list_entry_actions e id pre en1 t c2 f2 :
  apply_actions e (VList id (pre ++ en1 :: t))
                (entry_actions (PSeq (N.of_nat (length pre))) (Some en1) c2 f2)
  = Some (VList id (pre ++ (base_of (Some en1) c2 f2, f2) :: t)).
Proof.
  destruct (entry_actions_cases (PSeq (N.of_nat (length pre))) (Some en1) c2 f2)
    as [(c1 & f1 & [= ->] & Hf & [[-> ->]|(d & -> & Hi)])|[-> ->]].
  - apply flag_patch_list, Hf.
  - cbn [apply_actions apply_action]. rewrite get_at_app, Hi, set_at_app. apply flag_patch_list, Hf.
  - cbn [put_action apply_actions apply_action]. rewrite get_at_app, set_at_app. reflexivity.
Qed.

Fixpoint lmid (l1 l2 : list ventry) : list ventry :=
  match l2 with
  | [] => []
  | en2 :: t2 => (base_of (hd_error l1) (fst en2) (snd en2), snd en2) :: lmid (tl l1) t2
  end.

Lemma lmid_nil l2 :
  lmid [] l2 = map new_entry (map (fun en => (pv_of (fst en), snd en)) l2).
Proof.
  induction l2 as [|[c f] t IH]; cbn [lmid map hd_error tl fst snd]; [reflexivity|].
  rewrite IH. reflexivity.
Qed.

Lemma app_snoc {A} (pre : list A) x t : pre ++ x :: t = (pre ++ [x]) ++ t.
Proof. exact (app_assoc pre [x] t). Qed.

Lemma len_snoc {A} (pre : list A) x : N.of_nat (length pre) + 1 = N.of_nat (length (pre ++ [x])).
Proof. rewrite last_length. lia. Qed.

Lemma list_shallow e id l2 : forall l1 pre,
  apply_actions e (VList id (pre ++ l1)) (list_actions (N.of_nat (length pre)) l1 l2)
  = Some (VList id (pre ++ lmid l1 l2)).
Proof.
  induction l2 as [|en2 t2 IH]; intros l1 pre.
  - destruct l1 as [|en1 t1]; cbn [list_actions lmid].
    + reflexivity.
    + cbn [apply_actions apply_action]. rewrite delete_at_tail, app_nil_r. reflexivity.
  - destruct l1 as [|en1 t1]; cbn [list_actions].
    + cbn [apply_actions apply_action]. rewrite app_nil_r, insert_at_end, lmid_nil. reflexivity.
    + rewrite apply_actions_app, list_entry_actions. cbn [lmid hd_error tl].
      set (x := (base_of (Some en1) (fst en2) (snd en2), snd en2)).
      rewrite (len_snoc pre x), app_snoc, IH, <- app_snoc. reflexivity.
Qed.

Lemma text_apply e id u1 u2 :
  apply_actions e (VText id u1) (text_actions u1 u2) = Some (VText id u2).
Proof.
  unfold text_actions. destruct (nlist_eqb u1 u2) eqn:E.
  - apply bytes_eqb_spec in E. subst. reflexivity.
  - assert (D : forall u, apply_actions e (VText id u)
                 (match u with [] => [] | _ :: _ => [DeleteSeq 0 (N.of_nat (length u))] end)
               = Some (VText id [])).
    { intros [|x t]; [reflexivity|]. cbn [apply_actions apply_action].
      rewrite (delete_at_tail [] (x :: t) : delete_at 0 _ (x :: t) = _). reflexivity. }
    rewrite apply_actions_app, D. destruct u2 as [|y t]; [reflexivity|].
    cbn [apply_actions apply_action]. rewrite (insert_at_end [] (y :: t) : insert_at 0 _ [] = _). reflexivity.
Qed.

Lemma apply_push_map e id k ps : forall m c f c',
  mlookup k m = Some (c, f) -> apply_patches e ps c = Some c' ->
  apply_patches e (map (push_step (id, PMap k)) ps) (VMap id m) = Some (VMap id (mset k (c', f) m)).
Proof.
  induction ps as [|p t IH]; intros m c f c' L A; cbn [map apply_patches] in *.
  - inversion A; subst. rewrite mset_same by exact L. reflexivity.
  - destruct (apply_patch e c p) as [c1|] eqn:E; [|discriminate].
    unfold apply_patch at 1. cbn [push_step p_path p_obj p_action apply_at].
    unfold id_is at 1. cbn [view_id]. rewrite opid_eqb_refl, L.
    unfold apply_patch in E. rewrite E.
    rewrite (IH (mset k (c1, f) m) c1 f c'); [|rewrite mlookup_mset, keqb_refl, L; reflexivity|exact A].
    rewrite mset_mset. reflexivity.
Qed.

Lemma apply_push_list e id ps : forall pre c f t c',
  apply_patches e ps c = Some c' ->
  apply_patches e (map (push_step (id, PSeq (N.of_nat (length pre)))) ps) (VList id (pre ++ (c, f) :: t))
  = Some (VList id (pre ++ (c', f) :: t)).
Proof.
  induction ps as [|p r IH]; intros pre c f t c' A; cbn [map apply_patches] in *.
  - inversion A; subst. reflexivity.
  - destruct (apply_patch e c p) as [c1|] eqn:E; [|discriminate].
    unfold apply_patch at 1. cbn [push_step p_path p_obj p_action apply_at].
    unfold id_is at 1. cbn [view_id]. rewrite opid_eqb_refl, get_at_app.
    unfold apply_patch in E. rewrite E, set_at_app.
    apply IH, A.
Qed.

Definition Pdiff (e : enc) (v2 : view) : Prop :=
  forall v1, same_shell v1 v2 = true -> wf_node v1 = true -> wf_node v2 = true ->
  apply_patches e (diff v1 v2) v1 = Some v2.

Lemma wf_base old c2 f2 :
  (forall c1 f1, old = Some (c1, f1) -> wf_node c1 = true) -> wf_node (base_of old c2 f2) = true.
Proof.
  intros H. unfold base_of. destruct (keeps old c2 f2) eqn:K; [|apply wf_node_empty_like].
  destruct old as [[c1 f1]|]; [|discriminate]. eapply H. reflexivity.
Qed.

Lemma diff_base e old c2 f2 :
  Pdiff e c2 -> (forall c1 f1, old = Some (c1, f1) -> wf_node c1 = true) -> wf_node c2 = true ->
  apply_patches e (diff (base_of old c2 f2) c2) (base_of old c2 f2) = Some c2.
Proof. intros P W1 W2. apply P; [apply base_same_shell|apply wf_base, W1|exact W2]. Qed.

Lemma map_children_apply e id m1 rest : forall pre,
  Forall (fun ke => wf_node (fst (snd ke)) = true) m1 ->
  Forall (fun ke => Pdiff e (fst (snd ke))) rest ->
  Forall (fun ke => wf_node (fst (snd ke)) = true) rest ->
  KS (pre ++ rest) ->
  apply_patches e (map_children diff id m1 rest) (VMap id (pre ++ mid_map m1 rest))
  = Some (VMap id (pre ++ rest)).
Proof.
  induction rest as [|[k [c2 f2]] t IH]; intros pre W1 HP W2 S; cbn [map_children flat_map mid_map map].
  - reflexivity.
  - inversion HP as [|? ? P1 HP']; subst. inversion W2 as [|? ? Wc W2']; subst. cbn [fst snd] in *.
    set (b := base_of (mlookup k m1) c2 f2).
    assert (Hb : apply_patches e (diff b c2) b = Some c2).
    { apply diff_base; [exact P1| |exact Wc]. intros c1 f1 E. apply mlookup_In in E.
      rewrite Forall_forall in W1. apply (W1 _ E). }
    pose proof (KS_app_lookup_none _ _ _ _ S) as Hn.
    apply apply_patches_app_some with (v1 := VMap id (pre ++ (k, (c2, f2)) :: mid_map m1 t)).
    + rewrite (apply_push_map e id k _ _ b f2 c2);
        [|rewrite mlookup_app_none by exact Hn; cbn [mlookup]; rewrite keqb_refl; reflexivity|exact Hb].
      rewrite mset_app_none by exact Hn. cbn [mset]. rewrite keqb_refl. reflexivity.
    + rewrite (app_snoc pre _ (mid_map m1 t)), (app_snoc pre _ t). apply IH; [exact W1|exact HP'|exact W2'|]. rewrite <- app_snoc. exact S.
Qed.

Lemma list_children_apply e id rest : forall l1 pre,
  Forall (fun en => wf_node (fst en) = true) l1 ->
  Forall (fun en => Pdiff e (fst en)) rest ->
  Forall (fun en => wf_node (fst en) = true) rest ->
  apply_patches e (list_children diff id (N.of_nat (length pre)) l1 rest) (VList id (pre ++ lmid l1 rest))
  = Some (VList id (pre ++ rest)).
Proof.
  induction rest as [|[c2 f2] t IH]; intros l1 pre W1 HP W2; cbn [list_children lmid].
  - reflexivity.
  - inversion HP as [|? ? P1 HP']; subst. inversion W2 as [|? ? Wc W2']; subst. cbn [fst snd] in *.
    set (b := base_of (hd_error l1) c2 f2).
    assert (Hb : apply_patches e (diff b c2) b = Some c2).
    { apply diff_base; [exact P1| |exact Wc]. intros c1 f1 E. destruct l1 as [|x l1']; [discriminate|].
      cbn [hd_error] in E. inversion E; subst. inversion W1; subst. assumption. }
    apply apply_patches_app_some with (v1 := VList id (pre ++ (c2, f2) :: lmid (tl l1) t)).
    + apply apply_push_list, Hb.
    + rewrite (len_snoc pre (c2, f2)), (app_snoc pre _ (lmid (tl l1) t)), (app_snoc pre _ t).
      apply IH; [|exact HP'|exact W2']. destruct l1; [constructor|]. inversion W1; assumption.
Qed.

Theorem diff_apply_node e : forall v2, Pdiff e v2.
Proof.
  induction v2 as [s|id m2 IH|id l2 IH|id u2] using view_ind2; intros v1 SS W1 W2.
  - destruct v1; cbn in SS; try discriminate. apply scalar_eqb_spec in SS. subst. reflexivity.
  - destruct v1 as [|id1 m1| |]; cbn in SS; try discriminate. apply opid_eqb_spec in SS. subst id1.
    apply wf_node_map in W1. destruct W1 as [K1 F1]. apply wf_node_map in W2. destruct W2 as [K2 F2].
    apply keys_sorted_KS in K1. apply keys_sorted_KS in K2.
    cbn [diff map_of].
    apply apply_patches_app_some with (v1 := VMap id (mid_map m1 m2)).
    + rewrite apply_here; [apply map_shallow; assumption|apply opid_eqb_refl].
    + apply (map_children_apply e id m1 m2 []); assumption.
  - destruct v1 as [| |id1 l1|]; cbn in SS; try discriminate. apply opid_eqb_spec in SS. subst id1.
    apply wf_node_list in W1. apply wf_node_list in W2.
    cbn [diff list_of].
    apply apply_patches_app_some with (v1 := VList id (lmid l1 l2)).
    + rewrite apply_here; [apply (list_shallow e id l2 l1 [])|apply opid_eqb_refl].
    + apply (list_children_apply e id l2 l1 []); assumption.
  - destruct v1 as [| | |id1 u1]; cbn in SS; try discriminate. apply opid_eqb_spec in SS. subst id1.
    cbn [diff text_of_view]. rewrite apply_here; [apply text_apply|apply opid_eqb_refl].
Qed.

Theorem diff_apply e v1 v2 : wf_view v1 -> wf_view v2 -> apply_patches e (diff v1 v2) v1 = Some v2.
Proof.
  intros [W1 [m1 ->]] [W2 [m2 ->]]. apply diff_apply_node; [|exact W1|exact W2].
  cbn [same_shell]. apply opid_eqb_refl.
Qed.

Lemma wf_viewb_spec v : wf_viewb v = true <-> wf_view v.
Proof.
  unfold wf_viewb, wf_view. split.
  - intros H. apply andb_true_iff in H. destruct H as [H1 H2]. split; [exact H1|].
    destruct v; try discriminate. apply opid_eqb_spec in H2. subst. eexists. reflexivity.
  - intros [H1 [m ->]]. rewrite H1. reflexivity.
Qed.

Lemma apply_at_step e pid pr rest obj a v v' :
  apply_at e ((pid, pr) :: rest) obj a v = Some v' ->
  (exists id m k c f c', v = VMap id m /\ pr = PMap k /\ mlookup k m = Some (c, f) /\
     apply_at e rest obj a c = Some c' /\ v' = VMap id (mset k (c', f) m)) \/
  (exists id l i c f c', v = VList id l /\ pr = PSeq i /\ get_at i l = Some (c, f) /\
     apply_at e rest obj a c = Some c' /\ v' = VList id (set_at i (c', f) l)) \/
  (exists id u i, v = VText id u /\ pr = PSeq i /\ v' = v).
Proof.
  cbn [apply_at]. destruct (id_is v pid); [|discriminate].
  destruct v as [s|id m|id l|id u]; destruct pr as [k|i]; try discriminate.
  - destruct (mlookup k m) as [[c f]|] eqn:L; [|discriminate].
    destruct (apply_at e rest obj a c) as [c'|] eqn:A; [|discriminate].
    intros H. inversion H. left. exists id, m, k, c, f, c'. auto.
  - destruct (get_at i l) as [[c f]|] eqn:L; [|discriminate].
    destruct (apply_at e rest obj a c) as [c'|] eqn:A; [|discriminate].
    intros H. inversion H. right. left. exists id, l, i, c, f, c'. auto.
  - intros H. inversion H. right. right. exists id, u, i. auto.
Qed.

Lemma apply_at_frame e : forall path pre obj a v v' f x y q' path',
  apply_at e path obj a v = Some v' ->
  map snd path = pre ++ y :: path' -> x <> y ->
  subentry (v', f) (pre ++ x :: q') = subentry (v, f) (pre ++ x :: q').
Proof.
  induction path as [|[pid pr] rest IH]; intros pre obj a v v' f x y q' path' H Hp Hne;
    [destruct pre; discriminate|].
  apply apply_at_step in H.
  destruct H as [(id & m & k & c & fl & c' & -> & -> & L & A & ->)
                |[(id & l & i & c & fl & c' & -> & -> & L & A & ->)|(id & u & i & -> & -> & ->)]];
    [| |reflexivity];
    destruct pre as [|p0 pre]; cbn [map snd app] in Hp; inversion Hp; subst; cbn [app subentry fst].
  - destruct x as [ka|ia]; [|reflexivity].
    rewrite mlookup_mset_other by congruence. reflexivity.
  - rewrite mlookup_mset, keqb_refl, L. eapply IH; eassumption.
  - destruct x as [ka|ia]; [reflexivity|]. apply get_at_split in L. destruct L as (p & t & -> & ->).
    rewrite set_at_app, (get_at_app_ne ia p (c', fl) (c, fl)) by congruence. reflexivity.
  - apply get_at_split in L. destruct L as (p & t & -> & ->).
    rewrite set_at_app, !get_at_app. eapply IH; eassumption.
Qed.

Theorem apply_patch_frame e v p v' q :
  apply_patch e v p = Some v' -> diverges q (map snd (p_path p)) -> subtree v' q = subtree v q.
Proof.
  intros H [pre [x [y [q' [path' [-> [Hp Hne]]]]]]]. unfold subtree.
  eapply apply_at_frame; eassumption.
Qed.

Theorem apply_patch_shell e v p v' : apply_patch e v p = Some v' -> same_shell v v' = true.
Proof.
  unfold apply_patch. destruct (p_path p) as [|[pid pr] rest].
  - cbn [apply_at]. destruct (id_is v (p_obj p)); [apply apply_action_shell|discriminate].
  - intros H. apply apply_at_step in H.
    destruct H as [(id & m & k & c & f & c' & -> & _ & _ & _ & ->)
                  |[(id & l & i & c & f & c' & -> & _ & _ & _ & ->)|(id & u & i & -> & _ & ->)]];
      apply opid_eqb_refl.
Qed.

(* the register after a local update that supersedes the whole register [r] (C03_update_register_spec with
   r' = r: nothing is kept) *)
Definition after_reg (id : opid) (a : action) (r : regobs) : regobs :=
  match a with
  | APut v => [(id, scalar_vobs v)]
  | AMake t => [(id, VO t)]
  | AInc z => inc_reg z r
  | _ => []
  end.

Lemma pv_of_new_view pv : pv_of (new_view pv) = match pv with PVO OTable id => PVO OMap id | _ => pv end.
Proof. destruct pv as [s|[| | |] id]; reflexivity. Qed.

Lemma shell_lookup_mupsert k v c m k' :
  shell_lookup k' (mupsert k (v, c) m) = if keqb k' k then Some (pv_of v, c) else shell_lookup k' m.
Proof. unfold shell_lookup. rewrite mlookup_mupsert. destruct (keqb k' k); reflexivity. Qed.

Theorem local_patch_sound_map e oid m k id a r pa :
  match a with
  | APut _ | ADel => True
  | AMake t => t <> OTable
  | AInc _ => exists i c, r = [(i, VC c)]
  | _ => False
  end ->
  local_action (PMap k) id a r = Some pa ->
  shell_lookup k m = entry_shell r ->
  exists m',
    apply_action e (VMap oid m) pa = Some (VMap oid m') /\
    shell_lookup k m' = entry_shell (after_reg id a r) /\
    (forall k', k' <> k -> mlookup k' m' = mlookup k' m).
Proof.
  intros Ha Hl Hs. destruct a as [v|t| |z| |]; try contradiction; cbn [local_action put_pv del_action] in Hl.
  - inversion Hl; subst pa. cbn [apply_action]. eexists. split; [reflexivity|]. split.
    + rewrite shell_lookup_mupsert, keqb_refl. cbn [after_reg entry_shell winner map last length].
      destruct v; reflexivity.
    + intro. apply mlookup_mupsert_other.
  - inversion Hl; subst pa. cbn [apply_action]. eexists. split; [reflexivity|]. split.
    + rewrite shell_lookup_mupsert, keqb_refl, pv_of_new_view.
      cbn [after_reg entry_shell winner map last length pv_of_vobs]. destruct t; try reflexivity. contradiction.
    + intro. apply mlookup_mupsert_other.
  - inversion Hl; subst pa. cbn [apply_action]. eexists. split; [reflexivity|]. split.
    + unfold shell_lookup. rewrite mlookup_mremove, keqb_refl. reflexivity.
    + intro. apply mlookup_mremove_other.
  - destruct Ha as [i [c ->]]. cbn [length Nat.ltb Nat.leb] in Hl. inversion Hl; subst pa.
    cbn [entry_shell winner map last length pv_of_vobs Nat.ltb Nat.leb] in Hs.
    unfold shell_lookup in Hs. destruct (mlookup k m) as [[cv f]|] eqn:L; [|discriminate].
    inversion Hs as [[Hc Hf]]. destruct cv as [[| | | | | | |x| |]| | |]; try discriminate.
    cbn [pv_of] in Hc. inversion Hc; subst x. subst f.
    cbn [apply_action]. rewrite L. cbn [inc_entry]. eexists. split; [reflexivity|]. split.
    + unfold shell_lookup. rewrite mlookup_mset, keqb_refl, L. reflexivity.
    + intro. apply mlookup_mset_other.
Qed.

(* two conflicting counters: the increment reaches both, the register stays conflicted and the greater id
   still wins, but the emitted Put carries the first counter's new value and conflict = false *)
Theorem local_increment_conflict_refuted :
  exists m k id z r pa,
    local_action (PMap k) id (AInc z) r = Some pa /\
    shell_lookup k m = entry_shell r /\
    forall e m', apply_action e (VMap root_id m) pa = Some (VMap root_id m') ->
                 shell_lookup k m' <> entry_shell (after_reg id (AInc z) r).
Proof.
  exists [([99], (VScalar (SCounter 3), true))], [99], (5, [1]), 1%Z,
         [((1, [1]), VC 1); ((1, [2]), VC 3)], (PutMap [99] (PVS (SCounter 2)) false).
  split; [reflexivity|]. split; [reflexivity|].
  intros e m' H. cbn in H. inversion H; subst m'. vm_compute. discriminate.
Qed.
