(* Crdt/TxnProofs.v — rollback restores the document (C28), isolated transactions act on the
   chosen heads (C29). *)
From AM Require Import Base.Prelude Base.ListFacts Base.Order Crdt.Types Crdt.Interp Crdt.Doc Crdt.Local Crdt.Commit
  Crdt.InterpProofs Crdt.ClockProofs Crdt.QueueProofs Crdt.CommitProofs Crdt.LocalProofs Crdt.Txn Exec.HistExec.
From Coq Require Import Sorting.Sorted.
Local Open Scope N_scope.

Lemma next_id_actor t : snd (next_id t) = tx_actor t.
Proof. reflexivity. Qed.

Lemma txn_calls_inv e cs : forall o o', txn_calls e o cs = EOk o' ->
  ot_meta o' = ot_meta o /\ ot_iso o' = ot_iso o /\ ot_doc o' = ot_doc o /\ Ext (ot_tx o) (ot_tx o').
Proof.
  induction cs as [|c rest IH]; intros o o' H; cbn [txn_calls] in H.
  - inversion H; subst. split; [reflexivity|split; [reflexivity|split; [reflexivity|apply Ext_refl]]].
  - unfold txn_call in H. destruct (apply_call e (ot_tx o) c) as [[t1 s]|x|] eqn:E; try discriminate.
    apply IH in H. cbn [ot_meta ot_iso ot_doc ot_tx] in H. destruct H as (M & I & D & X).
    split; [exact M|split; [exact I|split; [exact D|]]].
    eapply Ext_trans; [eapply Ext_apply_call; exact E|exact X].
Qed.

Lemma observe_isort ops : observe (isort op_cmp ops) = observe ops.
Proof.
  unfold observe. f_equal. apply (isort_id (kcmp op_id opid_cmp)), (kisort_sorted op_id opid_cmp opid_cmp_total).
Qed.

Definition SortedT (t : list actor) : Prop := StronglySorted (fun x y => bytes_cmp x y = Lt) t.

Lemma SortedT_cons x y r : bytes_cmp x y = Lt -> SortedT (y :: r) -> SortedT (x :: y :: r).
Proof.
  intros E H. constructor; [exact H|]. constructor; [exact E|].
  inversion H as [|? ? _ Hall]; subst. eapply Forall_impl; [|exact Hall]. intros z Hz. cbv beta in Hz.
  eapply (cmp_trans bytes_cmp_total); eassumption.
Qed.

Lemma sorted_actors_spec t : sorted_actors t = true -> SortedT t.
Proof.
  induction t as [|x r IH]; intros H; [constructor|].
  destruct r as [|y r'].
  - constructor; constructor.
  - cbn [sorted_actors] in H. apply andb_true_iff in H. destruct H as [Hxy Hr].
    unfold ltb in Hxy. destruct (bytes_cmp x y) eqn:E; try discriminate.
    apply SortedT_cons; [exact E|exact (IH Hr)].
Qed.

Lemma In_put_actor t a x : In x (put_actor t a) <-> x = a \/ In x t.
Proof.
  induction t as [|y r IH]; cbn [put_actor].
  - cbn [In]. split; intros [H|H]; auto.
  - destruct (bytes_cmp a y) eqn:E.
    + apply (cmp_eq bytes_cmp_total) in E. subst y. split; [auto|]. intros [->|H]; [left; reflexivity|exact H].
    + cbn [In]. split; intros [H|H]; auto.
    + cbn [In]. rewrite IH. tauto.
Qed.

Lemma put_actor_sorted t a : SortedT t -> SortedT (put_actor t a).
Proof.
  induction t as [|y r IH]; intros H; cbn [put_actor].
  - constructor; constructor.
  - destruct (bytes_cmp a y) eqn:E; [exact H|apply SortedT_cons; assumption|].
    inversion H as [|? ? Hr Hall]; subst. constructor; [apply IH, Hr|].
    apply Forall_forall. intros z Hz. apply In_put_actor in Hz. destruct Hz as [->|Hz].
    + apply (cmp_gt_lt _ bytes_cmp_total). exact E.
    + rewrite Forall_forall in Hall. apply Hall, Hz.
Qed.

Lemma put_actor_present t a : SortedT t -> In a t -> put_actor t a = t.
Proof.
  induction t as [|y r IH]; intros H Hin; [destruct Hin|].
  inversion H as [|? ? Hr Hall]; subst. cbn [put_actor]. destruct Hin as [->|Hin].
  - rewrite (cmp_refl _ bytes_cmp_total). reflexivity.
  - rewrite Forall_forall in Hall.
    rewrite (proj2 (cmp_gt_lt _ bytes_cmp_total a y) (Hall a Hin)), (IH Hr Hin). reflexivity.
Qed.

Lemma filter_put_unused f t a : f a = false -> filter f (put_actor t a) = filter f t.
Proof.
  intros Hf. induction t as [|y r IH]; cbn [put_actor].
  - cbn. rewrite Hf. reflexivity.
  - destruct (bytes_cmp a y); [reflexivity| |].
    + cbn [filter]. rewrite Hf. reflexivity.
    + cbn [filter]. rewrite IH. reflexivity.
Qed.

Lemma filter_remove_unused f t a : f a = false -> filter f (remove_actor t a) = filter f t.
Proof.
  intros Hf. induction t as [|y r IH]; [reflexivity|]. cbn [remove_actor].
  destruct (same_actor y a) eqn:E.
  - apply bytes_eqb_spec in E. subst y. cbn [filter]. rewrite Hf. reflexivity.
  - cbn [filter]. rewrite IH. reflexivity.
Qed.

(* putting any actors into a table that already holds every used actor, then dropping the unused
   ones, gives the table back *)
Lemma fold_put_filter appl tried : forall t,
  SortedT t -> (forall a, used appl a = true -> In a t) ->
  filter (used appl) (fold_left put_actor tried t) = filter (used appl) t.
Proof.
  induction tried as [|a rest IH]; intros t Hs Hall; [reflexivity|]. cbn [fold_left].
  destruct (used appl a) eqn:U.
  - rewrite (put_actor_present t a Hs (Hall a U)). apply IH; assumption.
  - rewrite IH.
    + apply filter_put_unused, U.
    + apply put_actor_sorted, Hs.
    + intros b Hb. apply In_put_actor. right. apply Hall, Hb.
Qed.

Lemma table_ok_filter d : table_ok d -> filter (used (t_applied d)) (t_table d) = t_table d.
Proof. intros [_ H]. apply filter_all_true. intros a Ha. apply H, Ha. Qed.

(* [table_ok], decidable: for the non-vacuity examples *)
Definition table_ok_b (d : tdoc) : bool :=
  sorted_actors (t_table d) && forallb (used (t_applied d)) (t_table d)
  && forallb (fun c => memb nlist_eqb (ch_actor c) (t_table d)) (t_applied d).

Lemma table_ok_b_sound d : table_ok_b d = true -> table_ok d.
Proof.
  unfold table_ok_b. intros H. apply andb_true_iff in H. destruct H as [H H3].
  apply andb_true_iff in H. destruct H as [H1 H2]. split; [exact H1|].
  intros a. split.
  - intros Ha. rewrite forallb_forall in H2. apply H2, Ha.
  - intros Hu. unfold used in Hu. rewrite seq_for_actor_len in Hu.
    destruct (actor_changes (t_applied d) a) as [|c r] eqn:F; [discriminate|].
    assert (Hc : In c (actor_changes (t_applied d) a)) by (rewrite F; left; reflexivity).
    apply actor_changes_in in Hc. destruct Hc as [Hc <-].
    rewrite forallb_forall in H3. exact (proj1 (memb_In _ bytes_eqb_spec _ _) (H3 c Hc)).
Qed.

Lemma txn_open_inv d iso o : txn_open d iso = Ok o ->
  exists meta tried,
    commit_meta (t_applied d) (m_get_heads (t_m d)) (t_actor d) iso = Ok meta /\
    o = mkOT meta iso
          (mkTx (isort op_cmp (scope_ops (t_applied d) iso (cm_actor meta))) [] (cm_actor meta) (cm_start meta))
          (mkT (mkM (mkDoc (t_applied d)
                           (remove_actor_branch_from (queue (m_doc (t_m d))) (cm_actor meta) (cm_seq meta)))
                    (m_heads (t_m d)))
               (fold_left put_actor tried (t_table d)) (t_actor d)).
Proof.
  unfold txn_open, t_applied. destruct (commit_meta _ _ _ _) as [meta| |]; cbn [bind]; try discriminate.
  intros H. inversion H; subst. eexists. eexists. split; reflexivity.
Qed.

Lemma cleanup_after_open d meta iso tried :
  table_ok d -> commit_meta (t_applied d) (m_get_heads (t_m d)) (t_actor d) iso = Ok meta ->
  cleanup_table (t_applied d) meta (fold_left put_actor tried (t_table d)) = t_table d.
Proof.
  intros Hok Hm. pose proof Hok as [Hs Hall]. apply sorted_actors_spec in Hs.
  unfold cleanup_table, remove_unused.
  assert (E : filter (used (t_applied d)) (fold_left put_actor tried (t_table d)) = t_table d).
  { rewrite fold_put_filter; [apply table_ok_filter, Hok|exact Hs|intros a Ha; apply Hall, Ha]. }
  destruct (cm_seq meta =? 1) eqn:S1; [|exact E].
  rewrite filter_remove_unused; [exact E|].
  pose proof (commit_seq_next _ _ _ _ _ Hm) as Hn. unfold used.
  apply N.eqb_eq in S1. assert (seq_for_actor (t_applied d) (cm_actor meta) = 0) as -> by lia. reflexivity.
Qed.

(* Everything the model keeps of a document is back where it was, except the queue: opening the
   transaction dropped the queued changes that claim the sequence number the transaction would
   have used (with their queued dependents), and rollback does not put them back. *)
Theorem rollback_restores d iso o e cs o' :
  table_ok d -> txn_open d iso = Ok o -> txn_calls e o cs = EOk o' ->
  let d' := txn_rollback o' in
  t_applied d' = t_applied d /\ m_heads (t_m d') = m_heads (t_m d) /\
  t_actor d' = t_actor d /\ t_table d' = t_table d /\
  queue (m_doc (t_m d')) =
    remove_actor_branch_from (queue (m_doc (t_m d))) (cm_actor (ot_meta o)) (cm_seq (ot_meta o)) /\
  (* the op set: the pending ops are gone, the ops it held are what it holds *)
  tx_all (tx_rollback (ot_tx o')) = tx_base (ot_tx o) /\
  observe (tx_all (tx_rollback (ot_tx o'))) = observe (scope_ops (t_applied d) iso (cm_actor (ot_meta o))).
Proof.
  intros Hok Ho Hc d'. destruct (txn_open_inv d iso o Ho) as (meta & tried & Hm & ->).
  destruct (txn_calls_inv e cs _ _ Hc) as (M & I & D & (B & _)).
  cbn [ot_meta ot_iso ot_doc ot_tx] in *. subst d'. unfold txn_rollback. rewrite M, D.
  cbn [t_m t_table t_actor t_applied m_applied m_doc applied queue m_heads].
  unfold t_applied at 1. cbn [t_m m_applied m_doc applied].
  split; [reflexivity|]. split; [reflexivity|]. split; [reflexivity|].
  split; [apply (cleanup_after_open d meta iso tried Hok Hm)|]. split; [reflexivity|].
  unfold tx_rollback, tx_all. cbn [tx_base tx_pending]. rewrite app_nil_r, B. cbn [tx_base].
  split; [reflexivity|]. apply observe_isort.
Qed.

(* With no queued change in the way the rolled-back document IS the document the transaction
   started from: the same value of the model, hence indistinguishable by anything defined on it. *)
Theorem rollback_state_equal d iso o e cs o' :
  table_ok d -> queue_quiet d iso -> txn_open d iso = Ok o -> txn_calls e o cs = EOk o' ->
  txn_rollback o' = d.
Proof.
  intros Hok Hq Ho Hc.
  pose proof (rollback_restores d iso o e cs o' Hok Ho Hc) as R. cbv zeta in R.
  destruct R as (Ra & Rh & Rc & Rt & Rq & _).
  destruct (txn_open_inv d iso o Ho) as (meta & tried & Hm & Eo).
  rewrite Eo in Rq. cbn [ot_meta] in Rq. rewrite (Hq meta Hm) in Rq.
  destruct (txn_rollback o') as [[[a' q'] h'] tb' ac']. destruct d as [[[a q] h] tb ac].
  unfold t_applied in Ra. cbn in Ra, Rh, Rc, Rt, Rq. subst. reflexivity.
Qed.

(* without [queue_quiet] the statement is false: a queued change of the same actor that claims
   the next sequence number (it waits for a dependency) is dropped when the transaction opens
   and is still gone after the rollback *)
Theorem rollback_queue_refuted :
  exists d o, table_ok d /\ txn_open d None = Ok o /\ txn_rollback o <> d /\
              queue (m_doc (t_m d)) <> [] /\ queue (m_doc (t_m (txn_rollback o))) = [].
Proof.
  pose (a1 := mkChange 11 [1] 1 1 [] [dummy_op]).
  pose (a2 := mkChange 12 [1] 2 2 [11; 99] [dummy_op]).
  exists (mkT (mkM (mkDoc [a1] [a2]) [11]) [[1]] [1]).
  eexists. split; [|split; [vm_compute; reflexivity|]].
  - apply table_ok_b_sound. reflexivity.
  - split; [intros H; vm_compute in H; discriminate H|]. split; [discriminate|vm_compute; reflexivity].
Qed.

(* every change of the actor an isolated transaction writes as is an ancestor of the heads *)
Theorem isolated_actor_covered appl heads a hs m :
  Built appl -> AChain appl -> commit_meta appl heads a (Some hs) = Ok m ->
  forall c, In c appl -> ch_actor c = cm_actor m -> In c (ancestors appl hs).
Proof.
  intros Hb [Hidx Hch] Hm c Hc Ha.
  destruct (commit_deps_isolated appl heads a hs m Hm) as (_ & _ & j & _ & Hcov & _).
  pose proof (SeqIdx_le appl _ c (Hidx _) Hc Ha) as Hle.
  apply (seq_clock_covers appl hs c Hb Hch Hc). rewrite Ha. lia.
Qed.

Lemma in_all_ops o cs : In o (all_ops cs) <-> exists c, In c cs /\ In o (ch_ops c).
Proof. unfold all_ops. apply in_flat_map. Qed.

(* the document ops an isolated transaction sees are those of the ancestors of its heads, once
   every change of the actor it writes as is among them *)
Lemma scope_isolated appl hs ai :
  WFhist appl -> (forall c, In c appl -> ch_actor c = ai -> In c (ancestors appl hs)) ->
  scope_ops appl (Some hs) ai = all_ops (ancestors appl hs).
Proof.
  intros W Hcov. rewrite <- (filter_covered_eq appl hs W). apply filter_ext_in. intros o Ho.
  apply in_all_ops in Ho. destruct Ho as [c [Hc Ho]].
  unfold iso_covered, at_clock. destruct (same_actor (snd (op_id o)) ai) eqn:E; [|reflexivity].
  apply bytes_eqb_spec in E. cbn [orb]. symmetry.
  apply (covered_iff_ancestor appl hs W c o Hc Ho). apply Hcov; [exact Hc|].
  destruct (In_nth_error _ _ Ho) as [i Hi]. rewrite (wf_opids appl W c Hc i o Hi) in E. exact E.
Qed.

(* what the scope of an isolated transaction admits of the op set (document ops and the ops the
   transaction has made so far): the ops of the ancestors of the heads, and its own *)
Theorem isolated_scope_eq appl hs ai pending :
  WFhist appl ->
  (forall c, In c appl -> ch_actor c = ai -> In c (ancestors appl hs)) ->
  (forall o, In o pending -> snd (op_id o) = ai) ->
  filter (fun o => iso_covered (at_clock appl hs) ai (op_id o)) (all_ops appl ++ pending)
  = all_ops (ancestors appl hs) ++ pending.
Proof.
  intros W Hcov Hp. rewrite filter_app. f_equal; [exact (scope_isolated appl hs ai W Hcov)|].
  apply filter_all_true. intros o Ho. unfold iso_covered.
  rewrite (Hp o Ho). assert (same_actor ai ai = true) as -> by (apply bytes_eqb_spec; reflexivity).
  reflexivity.
Qed.

(* C29, reads: inside a transaction opened at [hs] (transaction_at / an isolated AutoCommit),
   after any editing calls, a read shows the document as of [hs] — the ops of the ancestors of
   [hs], which is what [obs_at] / fork_at(hs) show (C07) — extended with the transaction's own
   ops; and that is the op set the editing calls themselves work on *)
Theorem isolated_reads d hs o e cs o' :
  WFhist (t_applied d) -> Built (t_applied d) -> AChain (t_applied d) ->
  txn_open d (Some hs) = Ok o -> txn_calls e o cs = EOk o' ->
  let appl := t_applied d in
  let pending := tx_pending (ot_tx o') in
  txn_view o' = observe (all_ops (ancestors appl hs) ++ pending) /\
  observe (tx_all (ot_tx o)) = obs_at appl hs /\
  (NoDup (map op_id (all_ops (ancestors appl hs) ++ pending)) -> observe (tx_all (ot_tx o')) = txn_view o').
Proof.
  intros W Hb Hch Ho Hc appl pending.
  destruct (txn_open_inv d (Some hs) o Ho) as (meta & tried & Hm & ->).
  destruct (txn_calls_inv e cs _ _ Hc) as (M & I & D & (B & A & _ & extra & P & Hx)).
  cbn [ot_meta ot_iso ot_doc ot_tx tx_base tx_pending tx_actor app] in *.
  assert (Hcov : forall c, In c appl -> ch_actor c = cm_actor meta -> In c (ancestors appl hs)).
  { eapply isolated_actor_covered; eassumption. }
  pose proof (scope_isolated appl hs (cm_actor meta) W Hcov) as S0.
  assert (V : txn_view o' = observe (all_ops (ancestors appl hs) ++ pending)).
  { unfold txn_view. rewrite I, D, M. apply (f_equal observe), isolated_scope_eq; [exact W|exact Hcov|].
    subst pending. rewrite P. exact Hx. }
  split; [exact V|]. unfold tx_all. rewrite B. cbn [tx_base tx_pending]. fold appl. rewrite S0. split.
  - rewrite app_nil_r, observe_isort. symmetry. apply obs_at_eq_restrict, W.
  - intros Hnd. rewrite V. symmetry. apply observe_perm; [exact Hnd|].
    apply Permutation_app_tail, isort_perm.
Qed.

(* C29, dependencies: the change an isolated transaction creates depends on exactly the
   isolation heads; AutoCommit then isolates at that change, so the next isolated change depends
   on exactly it *)
Theorem isolated_deps d hs o :
  txn_open d (Some hs) = Ok o ->
  cm_deps (ot_meta o) = sortN (filter (has_hash (t_applied d)) hs) /\
  (incl hs (hashes (t_applied d)) -> forall h, In h (cm_deps (ot_meta o)) <-> In h hs) /\
  forall o' hash c d', tx_pending (ot_tx o') <> [] -> ot_meta o' = ot_meta o ->
    txn_commit o' hash = (d', Some c) -> ch_deps c = cm_deps (ot_meta o) /\ ch_hash c = hash.
Proof.
  intros Ho. destruct (txn_open_inv d (Some hs) o Ho) as (meta & tried & Hm & Eo).
  destruct (commit_deps_isolated _ _ _ _ _ Hm) as (Hd & Hi & _).
  rewrite Eo. cbn [ot_meta]. split; [exact Hd|]. split; [exact Hi|].
  intros o' hash c d' Hne HM Hc. unfold txn_commit in Hc. rewrite HM in Hc.
  destruct (tx_pending (ot_tx o')) as [|x r]; [contradiction|].
  inversion Hc; subst. cbn [ch_deps ch_hash ot_meta]. split; reflexivity.
Qed.

Theorem isolated_moves_to_change e d cs hash d' c hs :
  a_iso d = Some hs -> a_transact e d cs hash = EOk (d', Some c) -> a_iso d' = Some [ch_hash c].
Proof.
  intros Hi H. unfold a_transact in H. rewrite Hi in H.
  destruct (txn_open (a_doc d) (Some hs)) as [o| |]; try discriminate.
  destruct (txn_calls e o cs) as [o'| |]; try discriminate.
  destruct (txn_commit o' hash) as [d2 oc]. inversion H; subst. reflexivity.
Qed.

Lemma receive_ready_one appl c :
  ready appl c = true -> has_hash appl (ch_hash c) = false ->
  seq_for_actor appl (ch_actor c) < ch_seq c ->
  receive (mkDoc appl []) [c] = Ok (mkDoc (appl ++ [c]) []).
Proof.
  intros Hr Hf Hs. unfold receive. cbn [applied queue filter has_hash existsb orb negb].
  change (existsb (fun c0 => ch_hash c0 =? ch_hash c) appl) with (has_hash appl (ch_hash c)).
  rewrite Hf. cbn [negb orb batch_push applied queue].
  assert ((ch_seq c <=? seq_for_actor appl (ch_actor c)) = false) as -> by lia.
  cbn [has_actor_seq existsb has_hash app bind length release filter].
  rewrite Hr. cbn [negb filter app]. reflexivity.
Qed.

Fixpoint chain_ready (appl : list change) (cs : list change) : Prop :=
  match cs with
  | [] => True
  | c :: r => ready appl c = true /\ has_hash appl (ch_hash c) = false /\
              seq_for_actor appl (ch_actor c) < ch_seq c /\ chain_ready (appl ++ [c]) r
  end.

Fixpoint deliver_each (d : doc) (cs : list change) : res doc :=
  match cs with
  | [] => Ok d
  | c :: r => let* d' := receive d [c] in deliver_each d' r
  end.

Lemma deliver_chain cs : forall appl, chain_ready appl cs ->
  deliver_each (mkDoc appl []) cs = Ok (mkDoc (appl ++ cs) []).
Proof.
  induction cs as [|c r IH]; intros appl H; cbn [deliver_each].
  - rewrite app_nil_r. reflexivity.
  - destruct H as (Hr & Hf & Hs & Hrest). rewrite (receive_ready_one appl c Hr Hf Hs). cbn [bind].
    rewrite (IH _ Hrest), <- app_assoc. reflexivity.
Qed.

(* C29, integrate: isolation is not part of the document — [integrate] leaves the applied changes
   alone and lifts the restriction of the read clock, so the document then shows the reading of
   everything applied.  Any replica [e] that holds the same changes except the isolated ones
   [cs] and receives them (they are deliverable in creation order: each depends on the isolation
   heads or on its predecessor) ends with the same set of changes, hence the same heads and the
   same observation. *)
Theorem integrate_eq_merge (d : adoc) (appl_e cs : list change) :
  let applied_d := t_applied (a_doc d) in
  ops_unique applied_d -> Permutation applied_d (appl_e ++ cs) -> chain_ready appl_e cs ->
  a_doc (a_integrate d) = a_doc d /\ a_iso (a_integrate d) = None /\
  a_view (a_integrate d) = observe (all_ops applied_d) /\
  exists e', deliver_each (mkDoc appl_e []) cs = Ok e' /\
             a_view (a_integrate d) = observe (all_ops (applied e')) /\
             heads_of applied_d = heads_of (applied e').
Proof.
  intros applied_d U P C. split; [reflexivity|]. split; [reflexivity|]. split; [reflexivity|].
  exists (mkDoc (appl_e ++ cs) []). split; [apply deliver_chain, C|]. cbn [applied].
  destruct (same_changes_same_state applied_d (appl_e ++ cs) U P) as [Hh Ho].
  split; [exact Ho|exact Hh].
Qed.

Theorem isolated_commit_appends e d cs hash d' c :
  a_transact e d cs hash = EOk (d', Some c) ->
  t_applied (a_doc d') = t_applied (a_doc d) ++ [c].
Proof.
  intros H. unfold a_transact in H.
  destruct (txn_open (a_doc d) (a_iso d)) as [o| |] eqn:Ho; try discriminate.
  destruct (txn_calls e o cs) as [o'| |] eqn:Hc; try discriminate.
  destruct (txn_commit o' hash) as [d2 oc] eqn:Hk. inversion H; subst. cbn [a_doc].
  destruct (txn_open_inv _ _ _ Ho) as (meta & tried & Hm & Eo).
  destruct (txn_calls_inv e cs _ _ Hc) as (M & I & D & _).
  unfold txn_commit in Hk. destruct (tx_pending (ot_tx o')) as [|x r]; [inversion Hk|].
  inversion Hk; subst. rewrite D. cbn [ot_doc]. unfold t_applied. cbn [t_m m_applied m_doc applied]. reflexivity.
Qed.
