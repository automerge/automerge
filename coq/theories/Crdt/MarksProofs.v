(* Proofs about Crdt/Marks.v (C25).  The walk: the open marks after a prefix are the marks that cover its end
   ([open_spec]), and [current] picks the greatest id per name ([best_spec]).  The readers are each compared
   with the pointwise marking: get_marks through [gm_walk_at_pos], spans() through [spans_go_some], marks()
   through [cov], the set of (name, position, value) an accumulator reports, followed through the run loop.
   The insert query has two phases, divided by the character whose width takes the count to the target
   ([reach_split]): up to and including it no candidate is kept ([run_reach]), behind it only [spot] works
   on the candidates ([step_after]). *)
From AM Require Import Base.Prelude Base.Order Crdt.Types Crdt.Interp Crdt.Local Crdt.Marks.
From AM Require Import Crdt.InterpProofs.
Local Open Scope N_scope.

Definition opid_le (a b : opid) : Prop := opid_cmp a b <> Gt.

Lemma opid_le_refl a : opid_le a a.
Proof. unfold opid_le. rewrite (cmp_refl opid_cmp opid_cmp_total). discriminate. Qed.

Lemma opid_ltb_le a b : if opid_ltb a b then opid_le a b else opid_le b a.
Proof.
  unfold opid_ltb, ltb, opid_le. destruct (opid_cmp a b) eqn:E; [|discriminate|];
    intros H; apply (cmp_gt_lt opid_cmp opid_cmp_total) in H; congruence.
Qed.

Lemma opid_eqb_sym a b : opid_eqb a b = opid_eqb b a.
Proof.
  destruct (opid_eqb b a) eqn:E.
  - apply opid_eqb_spec in E. subst. apply opid_eqb_refl.
  - apply opid_eqb_false. intros ->. rewrite opid_eqb_refl in E. discriminate.
Qed.

Lemma nodup_app_l {A} (l1 l2 : list A) : NoDup (l1 ++ l2) -> NoDup l1.
Proof.
  induction l1 as [|x t IH]; cbn; intros H; [constructor|].
  inversion H as [|? ? Hn H']; subst. rewrite in_app_iff in Hn. constructor; [tauto|apply IH, H'].
Qed.

Theorem text_view_perm (e : enc) (obj : opid) (ops1 ops2 : list op) :
  NoDup (map op_id ops1) -> Permutation ops1 ops2 -> text_view e ops1 obj = text_view e ops2 obj.
Proof.
  intros ND P. unfold text_view.
  replace (isort op_cmp ops2) with (isort op_cmp ops1); [reflexivity|].
  exact (kisort_perm_eq op_id opid_cmp opid_cmp_total ops1 ops2 ND P).
Qed.

Theorem marks_converge (e : enc) (obj : opid) (ops1 ops2 : list op) :
  NoDup (map op_id ops1) -> Permutation ops1 ops2 ->
  marks (text_view e ops1 obj) = marks (text_view e ops2 obj) /\
  spans (text_view e ops1 obj) = spans (text_view e ops2 obj) /\
  (forall i, get_marks (text_view e ops1 obj) i = get_marks (text_view e ops2 obj) i) /\
  (forall p, marks_at_pos (text_view e ops1 obj) p = marks_at_pos (text_view e ops2 obj) p).
Proof.
  intros ND P. rewrite (text_view_perm e obj ops1 ops2 ND P). repeat split; reflexivity.
Qed.

Lemma best_char n st :
  match best n st with
  | Some (i, v) => In (i, n, v) st /\ forall i' v', In (i', n, v') st -> opid_le i' i
  | None => forall i v, ~ In (i, n, v) st
  end.
Proof.
  induction st as [|[[j k] w] t IH]; cbn [best om_name om_id om_val fst snd]; [intros i v []|].
  destruct (nlist_eqb k n) eqn:En.
  - apply bytes_eqb_spec in En. subst k. destruct (best n t) as [[i v]|].
    + destruct IH as [Hin Hmax]. pose proof (opid_ltb_le i j) as El. destruct (opid_ltb i j); (split; [cbn; auto|]).
      * intros i' v' [H|H]; [inversion H; apply opid_le_refl|].
        eapply (le_trans opid_cmp opid_cmp_total); [eapply Hmax, H|exact El].
      * intros i' v' [H|H]; [inversion H; subst; exact El|eapply Hmax, H].
    + split; [left; reflexivity|].
      intros i' v' [H|H]; [inversion H; apply opid_le_refl|destruct (IH _ _ H)].
  - assert (Hk : forall i v, (j, k, w) <> (i, n, v)).
    { intros i v H. inversion H; subst k. apply not_true_iff_false in En. apply En, bytes_eqb_spec. reflexivity. }
    destruct (best n t) as [[i v]|].
    + destruct IH as [Hin Hmax]. split; [right; exact Hin|].
      intros i' v' [H|H]; [destruct (Hk _ _ H)|eapply Hmax, H].
    + intros i v [H|H]; [destruct (Hk _ _ H)|destruct (IH _ _ H)].
Qed.

Definition om_ids (st : list omark) : list opid := map om_id st.

Theorem best_spec n st i v :
  NoDup (om_ids st) ->
  (best n st = Some (i, v) <->
   In (i, n, v) st /\ forall i' v', In (i', n, v') st -> opid_le i' i).
Proof.
  intros ND. pose proof (best_char n st) as B. split.
  - intros E. rewrite E in B. exact B.
  - intros [Hin Hmax]. destruct (best n st) as [[j w]|]; [|destruct (B _ _ Hin)].
    destruct B as [Hj Hjm].
    assert (i = j) by (apply (le_antisym opid_cmp opid_cmp_total); [eapply Hjm, Hin|eapply Hmax, Hj]).
    subst j.
    (* one id, one mark *)
    pose proof (NoDup_map_inj om_id st _ _ ND Hj Hin eq_refl) as E. inversion E. reflexivity.
Qed.

Lemma names_of_in st n : In n (names_of st) <-> In n (map om_name st).
Proof. unfold names_of. rewrite in_dedup_sorted. apply In_isort. Qed.

Theorem current_spec st n v :
  In (n, v) (current st) <-> exists i, best n st = Some (i, v).
Proof.
  unfold current. rewrite in_flat_map. split.
  - intros (n' & Hn' & Hin). destruct (best n' st) as [[i w]|] eqn:Eb; [|destruct Hin].
    destruct Hin as [Hin|[]]. inversion Hin; subst. exists i. exact Eb.
  - intros (i & Eb). exists n. rewrite Eb. split; [|left; reflexivity].
    apply names_of_in. generalize (best_char n st). rewrite Eb. intros [Hin _].
    exact (in_map om_name _ _ Hin).
Qed.

Lemma without_unmarks_in m n v : In (n, v) (without_unmarks m) <-> In (n, v) m /\ v <> SNull.
Proof.
  unfold without_unmarks. rewrite filter_In. cbn. split; intros [H1 H2]; split; auto.
  - intros ->. discriminate.
  - destruct v; try reflexivity. congruence.
Qed.

Lemma step_open_ids st it x : In x (om_ids (step_open st it)) -> In x (om_ids st) \/ (exists ex n v, it = IBegin x ex n v).
Proof.
  destruct it as [id ex n v|id ex|id vis w s]; cbn [step_open].
  - unfold open_begin. destruct (existsb _ st); [auto|].
    cbn. intros [H|H]; [right; subst; eauto|auto].
  - unfold open_end, om_ids. intros H. apply in_map_iff in H. destruct H as (m & <- & Hm).
    apply filter_In in Hm. left. apply in_map, Hm.
  - auto.
Qed.

Definition is_begin (it : item) : bool := match it with IBegin _ _ _ _ => true | _ => false end.
Definition begin_ids (its : list item) : list opid := map item_id (filter is_begin its).

Lemma begin_ids_app a b : begin_ids (a ++ b) = begin_ids a ++ begin_ids b.
Proof. unfold begin_ids. rewrite filter_app. apply map_app. Qed.

Lemma fold_open_ids its : forall st x,
  In x (om_ids (fold_left step_open its st)) -> In x (om_ids st) \/ In x (begin_ids its).
Proof.
  induction its as [|it t IH]; intros st x; cbn [fold_left]; [auto|].
  intros H. apply IH in H. change (it :: t) with ([it] ++ t). rewrite begin_ids_app, in_app_iff.
  destruct H as [H|H]; [|auto].
  apply step_open_ids in H. destruct H as [H|(ex & n & v & ->)]; [auto|].
  right. left. left. reflexivity.
Qed.

Lemma step_open_nodup st it :
  NoDup (om_ids st) -> NoDup (om_ids (step_open st it)).
Proof.
  intros ND. destruct it as [id ex n v|id ex|id vis w s]; cbn [step_open]; [| |exact ND].
  - unfold open_begin. destruct (existsb _ st) eqn:E; [exact ND|].
    cbn. constructor; [|exact ND]. intros H. apply in_map_iff in H.
    destruct H as (m & Hm & Hin).
    rewrite (proj2 (existsb_exists _ _)) in E; [discriminate|].
    exists m. split; [exact Hin|]. apply opid_eqb_spec, Hm.
  - apply NoDup_map_filter, ND.
Qed.

Lemma fold_open_nodup its : forall st, NoDup (om_ids st) -> NoDup (om_ids (fold_left step_open its st)).
Proof.
  induction its as [|it t IH]; intros st ND; cbn [fold_left]; [exact ND|]. apply IH, step_open_nodup, ND.
Qed.

Definition ends (id : opid) (it : item) : bool :=
  match it with IEnd e _ => opid_eqb (opid_prev e) id | _ => false end.

(* a mark whose end is met, and that is not begun again, is closed *)
Lemma fold_open_kill its : forall st m,
  forallb (fun it => negb (ends (om_id m) it)) its = false ->
  ~ In (om_id m) (begin_ids its) ->
  NoDup (om_ids st) ->
  ~ In m (fold_left step_open its st).
Proof.
  intros st m Hf Hnb _. revert st.
  induction its as [|it t IH]; intros st; cbn [fold_left]; [discriminate|].
  change (it :: t) with ([it] ++ t) in Hnb. rewrite begin_ids_app, in_app_iff in Hnb.
  cbn [forallb] in Hf. destruct (ends (om_id m) it) eqn:E; [|apply IH; tauto].
  destruct it as [id ex n v|id ex|id vis w s]; try discriminate.
  cbn in E. apply opid_eqb_spec in E. cbn [step_open]. intros H.
  apply (in_map om_id), fold_open_ids in H. destruct H as [H|H]; [|tauto].
  unfold open_end in H. apply in_map_iff in H. destruct H as (m' & E' & Hm').
  apply filter_In in Hm'. destruct Hm' as [_ Hm']. rewrite E', <- E, opid_eqb_refl in Hm'. discriminate.
Qed.

(* the mark covers the position right after [l1] *)
Definition covers (l1 : list item) (id : opid) (n : mname) (v : scalar) : Prop :=
  exists a ex b, l1 = a ++ IBegin id ex n v :: b /\ forallb (fun it => negb (ends id it)) b = true.

Lemma covers_snoc its it id n v :
  covers (its ++ [it]) id n v <->
  (covers its id n v /\ ends id it = false) \/ exists ex, it = IBegin id ex n v.
Proof.
  split.
  - intros (a & ex & b & E & Hf). destruct b as [|y b _] using rev_ind.
    + apply app_inj_tail in E. destruct E as [_ ->]. eauto.
    + rewrite app_comm_cons, app_assoc in E. apply app_inj_tail in E. destruct E as [-> ->].
      rewrite forallb_app in Hf. apply andb_true_iff in Hf. destruct Hf as [Hf Hy].
      cbn in Hy. rewrite andb_true_r, negb_true_iff in Hy. left. split; [exists a, ex, b; auto|exact Hy].
  - intros [[(a & ex & b & -> & Hf) He]|(ex & ->)].
    + exists a, ex, (b ++ [it]). split; [rewrite <- app_assoc; reflexivity|].
      rewrite forallb_app, Hf. cbn. rewrite He. reflexivity.
    + exists its, ex, []. auto.
Qed.

(* the open marks are the covering ones: one element more either begins a mark, or ends one, or neither *)
Theorem open_spec (its : list item) (id : opid) (n : mname) (v : scalar) :
  NoDup (begin_ids its) -> (In (id, n, v) (final_open its) <-> covers its id n v).
Proof.
  unfold final_open. induction its as [|it its IH] using rev_ind; intros ND.
  - split; [intros []|]. intros (a & ex & b & E & _). destruct a; discriminate.
  - rewrite begin_ids_app in ND. specialize (IH (nodup_app_l _ _ ND)).
    rewrite fold_left_app, covers_snoc, <- IH. cbn [fold_left].
    destruct it as [id0 ex0 n0 v0|e ex0|c vis w s]; cbn [step_open ends].
    + unfold open_begin. destruct (existsb _ _) eqn:E.
      * (* the id is not open yet: it would need a second begin *)
        exfalso. apply existsb_exists in E. destruct E as (m & Hm & Hid). apply opid_eqb_spec in Hid.
        apply (in_map om_id), fold_open_ids in Hm. rewrite Hid in Hm. destruct Hm as [[]|Hm].
        apply NoDup_remove_2 in ND. rewrite app_nil_r in ND. exact (ND Hm).
      * cbn [In]. split.
        -- intros [H|H]; [inversion H; eauto|auto].
        -- intros [[H _]|(ex & H)]; [auto|inversion H; auto].
    + unfold open_end. rewrite filter_In. cbn. rewrite negb_true_iff, opid_eqb_sym. split; [auto|].
      intros [H|(ex & H)]; [exact H|discriminate].
    + split; [auto|]. intros [[H _]|(ex & H)]; [exact H|discriminate].
Qed.

Lemma marking_app l1 : forall st id w s l2,
  marking (l1 ++ IChar id true w s :: l2) st =
  marking l1 st ++ mkP id w s (current (fold_left step_open l1 st)) :: marking l2 (fold_left step_open l1 st).
Proof.
  induction l1 as [|it t IH]; intros st id w s l2; [reflexivity|].
  destruct it as [id0 ex0 n0 v0|id0 ex0|id0 [|] w0 s0]; cbn [app marking fold_left step_open];
    rewrite IH; reflexivity.
Qed.

Lemma marking_fold l : forall st, (forall it, In it l -> match it with IChar _ true _ _ => False | _ => True end) ->
  marking l st = [].
Proof.
  induction l as [|it t IH]; intros st H; [reflexivity|].
  pose proof (H it (or_introl eq_refl)) as Hit.
  destruct it as [id0 ex0 n0 v0|id0 ex0|id0 [|] w0 s0]; cbn [marking]; try (apply IH; intros; apply H; right; assumption).
  destruct Hit.
Qed.

Theorem mark_value_highest_id (l1 l2 : list item) (c : opid) (w : N) (s : list N) (n : mname) (v : scalar) :
  NoDup (begin_ids (l1 ++ IChar c true w s :: l2)) ->
  exists e, nth_error (marking (l1 ++ IChar c true w s :: l2) []) (length (marking l1 [])) = Some e /\
            p_id e = c /\
    (In (n, v) (p_set e) <->
     exists id, covers l1 id n v /\ forall id' v', covers l1 id' n v' -> opid_le id' id).
Proof.
  intros ND. rewrite marking_app. eexists. split.
  - rewrite nth_error_app2 by lia. rewrite Nat.sub_diag. reflexivity.
  - split; [reflexivity|]. cbn [p_set].
    rewrite begin_ids_app in ND. apply nodup_app_l in ND.
    pose proof (fun id v => open_spec l1 id n v ND) as O.
    pose proof (fun i => best_spec n (final_open l1) i v (fold_open_nodup l1 [] (NoDup_nil _))) as B.
    change (fold_left step_open l1 []) with (final_open l1).
    rewrite current_spec. setoid_rewrite B. setoid_rewrite O. reflexivity.
Qed.

Fixpoint total_w (m : list pent) : N :=
  match m with [] => 0 | e :: t => p_w e + total_w t end.

Lemma gm_walk_at_pos m : forall index end_, end_ <= index ->
  match gm_walk m index end_ with
  | Some e => index < end_ + total_w m /\ p_set e = at_pos m (index - end_)
  | None => end_ + total_w m <= index
  end.
Proof.
  induction m as [|e t IH]; intros index end_ Hle; cbn [gm_walk at_pos total_w]; [lia|].
  destruct (N.ltb_spec index (end_ + p_w e)) as [E|E].
  - rewrite (proj2 (N.ltb_lt _ _)) by lia. split; [lia|reflexivity].
  - rewrite (proj2 (N.ltb_ge _ _)) by lia. specialize (IH index (end_ + p_w e) E).
    rewrite N.sub_add_distr in IH. destruct (gm_walk t index (end_ + p_w e)); [split; [lia|apply IH]|lia].
Qed.

Theorem get_marks_eq_pointwise (its : list item) (p : N) :
  p < total_w (marking its []) ->
  get_marks its p = without_unmarks (marks_at_pos its p).
Proof.
  intros H. unfold get_marks, marks_at_pos.
  generalize (gm_walk_at_pos (marking its []) p 0 (N.le_0_l p)).
  destruct (gm_walk (marking its []) p 0); [intros [_ ->]; rewrite N.sub_0_r; reflexivity|lia].
Qed.

Lemma markset_eqb_sound (a b : markset) : markset_eqb a b = true -> a = b.
Proof.
  apply list_eqb_spec. intros [n v] [n' v']. cbn [fst snd].
  rewrite andb_true_iff, (bytes_eqb_spec n n'), scalar_eqb_spec.
  split; [intros [-> ->]; reflexivity|intros [= -> ->]; auto].
Qed.

Definition expand_spans (sp : list span) : list (N * markset) :=
  flat_map (fun s => map (fun c => (c, snd s)) (fst s)) sp.
Definition pointwise_chars (m : list pent) : list (N * markset) :=
  flat_map (fun e => map (fun c => (c, without_unmarks (p_set e))) (p_txt e)) m.

Lemma flush_span_pos buf len mk : 0 < len -> flush_span (Some (buf, len, mk)) = [(buf, mk)].
Proof. intros H. cbn [flush_span]. rewrite (proj2 (N.eqb_neq _ _)) by lia. reflexivity. Qed.

Lemma spans_go_some m : forall buf len mk,
  Forall (fun e => 0 < p_w e) m -> 0 < len ->
  expand_spans (spans_go m (Some (buf, len, mk))) = map (fun c => (c, mk)) buf ++ pointwise_chars m.
Proof.
  induction m as [|e t IH]; intros buf len mk Hpos Hlen; cbn [spans_go].
  - rewrite flush_span_pos by exact Hlen. cbn. rewrite !app_nil_r. reflexivity.
  - inversion Hpos as [|? ? He Ht]; subst.
    destruct (markset_eqb (without_unmarks (p_set e)) mk) eqn:E.
    + apply markset_eqb_sound in E. rewrite IH by (auto; lia).
      rewrite map_app, <- app_assoc. cbn [pointwise_chars flat_map]. rewrite E. reflexivity.
    + rewrite flush_span_pos by exact Hlen. cbn [app expand_spans flat_map fst snd].
      fold (expand_spans (spans_go t (Some (p_txt e, p_w e, without_unmarks (p_set e))))).
      rewrite IH by auto. reflexivity.
Qed.

Theorem spans_marks_eq_pointwise (its : list item) :
  Forall (fun e => 0 < p_w e) (marking its []) ->
  expand_spans (spans its) = pointwise_chars (marking its []).
Proof.
  unfold spans. destruct (marking its []) as [|e t]; intros H; [reflexivity|].
  inversion H; subst. cbn [spans_go]. rewrite spans_go_some by auto. reflexivity.
Qed.

Lemma map_fst_tagged {A B C} (f : A -> list B) (g : A -> C) l :
  map fst (flat_map (fun a => map (fun c => (c, g a)) (f a)) l) = flat_map f l.
Proof.
  induction l as [|a t IH]; [reflexivity|].
  cbn [flat_map]. rewrite map_app, map_map, IH. cbn [fst]. rewrite map_id. reflexivity.
Qed.

Theorem spans_concat_text (its : list item) :
  Forall (fun e => 0 < p_w e) (marking its []) ->
  flat_map fst (spans its) = flat_map p_txt (marking its []).
Proof.
  intros H. rewrite <- (map_fst_tagged fst snd), <- (map_fst_tagged p_txt (fun e => without_unmarks (p_set e))).
  exact (f_equal (map fst) (spans_marks_eq_pointwise its H)).
Qed.

Definition covl (l : list accitem) (p : N) (v : scalar) : Prop :=
  exists it, In it l /\ a_index it <= p < a_index it + a_len it /\ a_val it = v.
Definition cov (a : acc) (n : mname) (p : N) (v : scalar) : Prop :=
  exists l, In (n, l) a /\ covl l p v.

Lemma covl_app x y p v : covl (x ++ y) p v <-> covl x p v \/ covl y p v.
Proof.
  unfold covl. split.
  - intros (it & Hin & H). apply in_app_or in Hin. destruct Hin; [left|right]; eauto.
  - intros [(it & Hin & H)|(it & Hin & H)]; exists it; (split; [apply in_or_app; auto|exact H]).
Qed.

Lemma covl_one i p v : covl [i] p v <-> a_index i <= p < a_index i + a_len i /\ a_val i = v.
Proof.
  unfold covl. split.
  - intros (it & [<-|[]] & H). exact H.
  - intros H. exists i. split; [left; reflexivity|exact H].
Qed.

Lemma covl_nil p v : covl [] p v <-> False.
Proof. split; [intros (it & [] & _)|intros []]. Qed.

Lemma cov_nil n p v : cov [] n p v <-> False.
Proof. split; [intros (l & [] & _)|intros []]. Qed.

Lemma cov_cons k l t n p v : cov ((k, l) :: t) n p v <-> (k = n /\ covl l p v) \/ cov t n p v.
Proof.
  unfold cov. cbn [In]. split.
  - intros (l' & [E|H] & Hc); [inversion E; subst; auto|eauto].
  - intros [[-> Hc]|(l' & H & Hc)]; eauto.
Qed.

(* two adjacent ranges read as one *)
Lemma range_split a b c p : a <= b <= c -> (a <= p < c <-> a <= p < b \/ b <= p < c).
Proof. lia. Qed.

Lemma push_item_cov idx len v0 l p v :
  covl (push_item idx len v0 l) p v <-> covl l p v \/ (idx <= p < idx + len /\ v0 = v).
Proof.
  unfold push_item. destruct l as [|last before _] using rev_ind.
  - cbn [rev]. rewrite covl_one, covl_nil. cbn. tauto.
  - rewrite rev_unit, rev_involutive.
    destruct (scalar_eqb (a_val last) v0 && (a_index last + a_len last =? idx)) eqn:C.
    + apply andb_true_iff in C. destruct C as [Cv Ci]. apply scalar_eqb_spec in Cv. apply N.eqb_eq in Ci.
      subst idx v0. rewrite !covl_app, !covl_one. cbn [a_index a_len a_val].
      rewrite N.add_assoc, (range_split (a_index last) (a_index last + a_len last)) by lia. tauto.
    + rewrite covl_app, covl_one. cbn. tauto.
Qed.

Lemma acc_upd_cov k idx len v0 a n p v :
  cov (acc_upd k (push_item idx len v0) a) n p v <-> cov a n p v \/ (k = n /\ idx <= p < idx + len /\ v0 = v).
Proof.
  (* [clear]: tauto would case on the equivalence left in the context *)
  induction a as [|[key l] t IH]; cbn [acc_upd].
  - rewrite cov_cons, push_item_cov, covl_nil, !cov_nil. tauto.
  - destruct (bytes_cmp k key) eqn:E.
    + apply (cmp_eq bytes_cmp_total) in E. subst key. rewrite !cov_cons, push_item_cov. clear. tauto.
    + rewrite cov_cons, push_item_cov, covl_nil. clear. tauto.
    + rewrite !cov_cons, IH. clear. tauto.
Qed.

Lemma acc_add_cov idx len s : forall a n p v,
  cov (acc_add idx len s a) n p v <-> cov a n p v \/ (In (n, v) s /\ idx <= p < idx + len).
Proof.
  unfold acc_add. induction s as [|[k v0] t IH]; intros a n p v; cbn [fold_left In fst snd]; [tauto|].
  rewrite IH, acc_upd_cov, pair_equal_spec. clear. tauto.
Qed.

Lemma flush_run_cov mindex mlen last a n p v :
  cov (flush_run mindex mlen last a) n p v <-> cov a n p v \/ (In (n, v) last /\ mindex <= p < mindex + mlen).
Proof.
  unfold flush_run. destruct (0 <? mlen) eqn:E.
  - apply acc_add_cov.
  - apply N.ltb_ge in E. split; [auto|intros [H|[_ H]]; [exact H|lia]].
Qed.

Lemma at_pos_cons e t index n p v :
  index <= p /\ In (n, v) (at_pos (e :: t) (p - index)) <->
  (index <= p < index + p_w e /\ In (n, v) (p_set e)) \/
  (index + p_w e <= p /\ In (n, v) (at_pos t (p - (index + p_w e)))).
Proof.
  cbn [at_pos]. rewrite N.sub_add_distr. destruct (N.ltb_spec (p - index) (p_w e)); intuition lia.
Qed.

Lemma runs_cov ents : forall index last mlen mindex a n p v,
  mindex + mlen = index ->
  (cov (runs ents index last mlen mindex a) n p v <->
   cov a n p v \/ (In (n, v) last /\ mindex <= p < index) \/ (index <= p /\ In (n, v) (at_pos ents (p - index)))).
Proof.
  induction ents as [|e t IH]; intros index last mlen mindex a n p v Hi.
  - cbn [runs at_pos In]. rewrite flush_run_cov, Hi. tauto.
  - rewrite at_pos_cons. cbn [runs]. destruct (markset_eqb last (p_set e)) eqn:E.
    + apply markset_eqb_sound in E. rewrite IH, <- E, (range_split mindex index) by lia. clear. tauto.
    + rewrite IH by lia. rewrite flush_run_cov, Hi. clear. tauto.
Qed.

Lemma acc_out_cov a n p v :
  (exists s e, In (s, e, n, v) (acc_out a) /\ s <= p < e) <-> cov a n p v /\ v <> SNull.
Proof.
  unfold acc_out, cov, covl. split.
  - intros (s & e & Hin & Hr). apply in_flat_map in Hin. destruct Hin as ([k l] & Hl & Hin).
    apply in_flat_map in Hin. destruct Hin as (it & Hit & Hin). cbn [fst snd] in Hin.
    destruct (is_null (a_val it)) eqn:En; [destruct Hin|]. destruct Hin as [[= <- <- <- <-]|[]].
    split; [exists l; split; [exact Hl|]; exists it; auto|]. intros Hn. rewrite Hn in En. discriminate.
  - intros [(l & Hl & it & Hit & Hr & <-) Hn]. exists (a_index it), (a_index it + a_len it). split; [|exact Hr].
    apply in_flat_map. exists (n, l). split; [exact Hl|]. apply in_flat_map. exists it. split; [exact Hit|].
    destruct (a_val it); first [left; reflexivity|congruence].
Qed.

Theorem marks_eq_pointwise (its : list item) (p : N) (n : mname) (v : scalar) :
  (exists s e, In (s, e, n, v) (marks its) /\ s <= p < e) <->
  In (n, v) (without_unmarks (marks_at_pos its p)).
Proof.
  unfold marks, marks_at_pos.
  rewrite acc_out_cov, without_unmarks_in, (runs_cov (marking its []) 0 [] 0 0 [] n p v eq_refl), cov_nil, N.sub_0_r.
  cbn [In]. pose proof (N.le_0_l p). tauto.
Qed.

Definition pos_char (it : item) : Prop := exists id w s, it = IChar id true w s /\ 0 < w.

Definition ow (o : option N) : N := match o with Some x => x | None => 0 end.

Lemma items_len_app a b : items_len (a ++ b) = items_len a + items_len b.
Proof. induction a as [|[| |? [|] ? ?] a IH]; cbn [app items_len]; lia. Qed.

Lemma plain_last l :
  Forall pos_char l -> l = [] \/ exists l' id w s, l = l' ++ [IChar id true w s] /\ 0 < w /\ Forall pos_char l'.
Proof.
  intros H. destruct l as [|x l' _] using rev_ind; [auto|].
  apply Forall_app in H. destruct H as [Hl H]. inversion H as [|? ? (id & w & s & -> & Hw) _]; subst.
  right. exists l', id, w, s. auto.
Qed.

Lemma iq_run_cons T it t q :
  iq_run T (it :: t) q = (if snd (iq_step T q it) then fst (iq_step T q it) else iq_run T t (fst (iq_step T q it))).
Proof. cbn [iq_run]. destruct (iq_step T q it); reflexivity. Qed.

Lemma step_before T idx lw lvc it :
  idx + ow lw < T ->
  iq_step T (mkIq idx lw false lvc []) it =
  (match it with
   | IChar id true w _ => mkIq (idx + ow lw) (Some w) false (Some id) []
   | _ => mkIq (idx + ow lw) None false lvc []
   end, false).
Proof.
  intros H. unfold iq_step, take_width. cbn [iq_lastw iq_index iq_done iq_lvc iq_cands].
  destruct lw as [x|]; cbn [ow] in *.
  - rewrite (proj2 (N.leb_gt _ _) H). destruct it as [| |? [|] ? ?]; reflexivity.
  - rewrite N.add_0_r. destruct it as [| |? [|] ? ?]; reflexivity.
Qed.

Lemma reach T idx x lvc cands rest :
  T <= idx + x ->
  take_width T (iq_run T rest (mkIq idx (Some x) false lvc cands)) =
  take_width T (iq_run T rest (mkIq (idx + x) None true lvc cands)).
Proof.
  intros H. apply N.leb_le in H. destruct rest as [|it rest].
  - unfold take_width. cbn. rewrite H. reflexivity.
  - cbn [iq_run]. unfold iq_step, take_width. cbn [iq_lastw iq_index iq_done iq_lvc iq_cands]. rewrite H. reflexivity.
Qed.

Lemma step_after T idx lvc cands it :
  iq_step T (mkIq idx None true lvc cands) it =
  (mkIq idx None true lvc (spot cands lvc it),
   match it with IChar _ true _ _ => match spot cands lvc it with [] => false | _ => true end | _ => false end).
Proof. destruct it as [? ? ? ?|? ?|? [|] ? ?]; reflexivity. Qed.

Lemma run_to_char T l id w s rest : forall idx lw lvc,
  idx + ow lw + items_len l < T ->
  iq_run T (l ++ IChar id true w s :: rest) (mkIq idx lw false lvc []) =
  iq_run T rest (mkIq (idx + ow lw + items_len l) (Some w) false (Some id) []).
Proof.
  induction l as [|it t IH]; intros idx lw lvc H; cbn [app]; rewrite iq_run_cons, step_before by lia; cbn [fst snd].
  - cbn [items_len]. rewrite N.add_0_r. reflexivity.
  - destruct it as [| |? [|] ? ?]; cbn [items_len] in H |- *; rewrite IH by (cbn [ow]; lia); cbn [ow]; do 2 f_equal; lia.
Qed.

Lemma run_reach T l id w s rest :
  items_len l < T <= items_len l + w ->
  take_width T (iq_run T (l ++ IChar id true w s :: rest)
                  (mkIq 0 None (T =? 0) None (if T =? 0 then [(head_id, None)] else []))) =
  take_width T (iq_run T rest (mkIq (items_len l + w) None true (Some id) [])).
Proof.
  intros [H1 H2]. replace (T =? 0) with false by (symmetry; apply N.eqb_neq; lia).
  rewrite run_to_char by (cbn [ow]; lia). apply reach, H2.
Qed.

(* the reference the new element gets when the target lies right behind a character: the next element if
   that is the begin op of a mark that expands before or the end op of one that does not expand after,
   otherwise the character *)
Lemma anchor_before_mark l id w s m post :
  0 < w -> (post = [] \/ exists c wc sc t, post = IChar c true wc sc :: t) ->
  anchor (items_len l + w) (l ++ IChar id true w s :: m :: post) =
  Some (match m with IBegin b true _ _ => b | IEnd e false => e | _ => id end, items_len l + w).
Proof.
  intros Hw Hpost. unfold anchor. rewrite run_reach by lia.
  destruct Hpost as [->|(c & wc & sc & t & ->)]; destruct m as [? [|] ? ?|? [|]|? [|] ? ?]; reflexivity.
Qed.

(* where the new element lands: right after its reference (it carries the greatest id, so no sibling
   precedes it) — [Interp.place] / [insert_after] on the element sequence *)
Fixpoint ins_after (r : opid) (c : item) (its : list item) : list item :=
  match its with
  | [] => [c]
  | x :: t => if opid_eqb (item_id x) r then x :: c :: t else x :: ins_after r c t
  end.
Definition place_item (r : opid) (c : item) (its : list item) : list item :=
  if opid_eqb r head_id then c :: its else ins_after r c its.

Lemma ins_after_at r c l1 x l2 :
  ~ In r (map item_id l1) -> item_id x = r -> ins_after r c (l1 ++ x :: l2) = l1 ++ x :: c :: l2.
Proof.
  intros Hn Hx. induction l1 as [|y t IH]; cbn [app ins_after].
  - rewrite Hx, opid_eqb_refl. reflexivity.
  - cbn [map In] in Hn. rewrite opid_eqb_false, IH; tauto.
Qed.

Lemma place_after l1 x l2 l3 c :
  NoDup (map item_id (l1 ++ x :: l3)) -> ~ In head_id (map item_id (l1 ++ x :: l3)) ->
  place_item (item_id x) c (l1 ++ x :: l2) = l1 ++ x :: c :: l2.
Proof.
  intros ND Hh. unfold place_item. rewrite opid_eqb_false.
  - apply ins_after_at; [|reflexivity]. rewrite map_app in ND. apply NoDup_remove_2 in ND.
    intros H. apply ND, in_or_app. left. exact H.
  - intros E. apply Hh. rewrite <- E. apply in_map, in_elt.
Qed.

(* behind [y] or behind its successor [x] *)
Lemma place_boundary l y x rest (k : bool) c :
  NoDup (map item_id (l ++ [y; x])) -> ~ In head_id (map item_id (l ++ [y; x])) ->
  place_item (if k then item_id x else item_id y) c (l ++ y :: x :: rest) =
  (l ++ y :: if k then [x] else []) ++ c :: if k then rest else x :: rest.
Proof.
  intros ND Hh. rewrite <- app_assoc. destruct k; [|exact (place_after l y _ [x] c ND Hh)].
  change (l ++ [y; x]) with (l ++ [y] ++ [x]) in ND, Hh. rewrite app_assoc in ND, Hh.
  change (l ++ y :: x :: rest) with (l ++ [y] ++ x :: rest). rewrite app_assoc, (place_after _ x rest [] c ND Hh), <- app_assoc.
  reflexivity.
Qed.

Lemma fold_chars l : Forall pos_char l -> forall st, fold_left step_open l st = st.
Proof.
  induction 1 as [|it t Hit _ IH]; intros st; [reflexivity|].
  destruct Hit as (id & w & s & -> & _). cbn. apply IH.
Qed.

Lemma current_one b n v : current [(b, n, v)] = [(n, v)].
Proof.
  unfold current, names_of. cbn. unfold om_name. cbn.
  replace (nlist_eqb n n) with true by (symmetry; apply bytes_eqb_spec; reflexivity). reflexivity.
Qed.

Theorem expand_single_mark_start pre b xb n v c w s rest q wq sq :
  Forall pos_char pre ->
  NoDup (map item_id (pre ++ [IBegin b xb n v])) -> ~ In head_id (map item_id (pre ++ [IBegin b xb n v])) ->
  let its := pre ++ IBegin b xb n v :: IChar c true w s :: rest in
  exists r, anchor (items_len pre) its = Some (r, items_len pre) /\
    exists l1 l2, place_item r (IChar q true wq sq) its = l1 ++ IChar q true wq sq :: l2 /\
                  current (final_open l1) = if xb then [(n, v)] else [].
Proof.
  intros Hp ND Hh its. subst its. destruct (plain_last pre Hp) as [->|(l & id & w' & s' & -> & Hw & Hl)].
  - destruct xb.
    + exists b. split; [reflexivity|]. exists [IBegin b true n v], (IChar c true w s :: rest).
      split; [exact (place_after [] _ _ [] _ ND Hh)|apply current_one].
    + exists head_id. split; [reflexivity|]. exists [], (IBegin b false n v :: IChar c true w s :: rest). split; reflexivity.
  - rewrite <- app_assoc in ND, Hh |- *. rewrite items_len_app. cbn [app items_len] in *. rewrite N.add_0_r.
    eexists. split; [apply anchor_before_mark; [exact Hw|right; eauto]|]. eexists _, _.
    split; [exact (place_boundary l _ (IBegin b xb n v) _ xb _ ND Hh)|].
    unfold final_open. rewrite fold_left_app, (fold_chars l Hl). destruct xb; [apply current_one|reflexivity].
Qed.

Theorem expand_single_mark_end pre b xb n v mid e xe post q wq sq :
  Forall pos_char pre -> Forall pos_char mid -> mid <> [] -> opid_prev e = b ->
  (post = [] \/ exists c w s t, post = IChar c true w s :: t) ->
  NoDup (map item_id (pre ++ IBegin b xb n v :: mid ++ [IEnd e xe])) ->
  ~ In head_id (map item_id (pre ++ IBegin b xb n v :: mid ++ [IEnd e xe])) ->
  let its := pre ++ IBegin b xb n v :: mid ++ IEnd e xe :: post in
  exists r, anchor (items_len pre + items_len mid) its = Some (r, items_len pre + items_len mid) /\
    exists l1 l2, place_item r (IChar q true wq sq) its = l1 ++ IChar q true wq sq :: l2 /\
                  current (final_open l1) = if xe then [(n, v)] else [].
Proof.
  intros Hp Hm Hne He Hpost ND Hh its. subst its.
  destruct (plain_last mid Hm) as [->|(l & id & w' & s' & -> & Hw & Hl)]; [congruence|].
  replace (items_len pre + items_len (l ++ [IChar id true w' s'])) with (items_len (pre ++ IBegin b xb n v :: l) + w')
    by (rewrite !items_len_app; cbn [items_len]; lia).
  rewrite <- app_assoc in ND, Hh |- *. cbn [app] in *. rewrite app_comm_cons, app_assoc in ND, Hh |- *.
  exists (if negb xe then e else id). split; [rewrite anchor_before_mark by assumption; destruct xe; reflexivity|].
  eexists _, _. split; [exact (place_boundary _ _ (IEnd e xe) _ (negb xe) _ ND Hh)|].
  unfold final_open. rewrite !fold_left_app, (fold_chars pre Hp). cbn [fold_left step_open]. rewrite (fold_chars l Hl).
  destruct xe; [apply current_one|].
  cbn. unfold open_end. cbn [filter om_id fst]. rewrite He, opid_eqb_refl. reflexivity.
Qed.

Theorem mark_out_of_range_no_op e t obj start end_ n v x :
  (start =? end_) && x_none x = false ->
  items_len (text_items e t obj) < start \/ items_len (text_items e t obj) < end_ ->
  mark_text e t obj start end_ n v x = (t, Some EInvalidIndex).
Proof.
  intros Hx H. unfold mark_text. rewrite Hx.
  destruct (items_len (text_items e t obj) <? start) eqn:E1; [reflexivity|].
  apply N.ltb_ge in E1. replace (items_len (text_items e t obj) <? end_) with true; [reflexivity|].
  symmetry. apply N.ltb_lt. lia.
Qed.

(* the character whose width takes the text to [T] *)
Lemma reach_split its : forall a T, a < T <= a + items_len its ->
  exists l id w s rest, its = l ++ IChar id true w s :: rest /\ a + items_len l < T <= a + items_len l + w.
Proof.
  induction its as [|it t IH]; intros a T H; [cbn in H; lia|].
  destruct it as [b x n v|e x|c [|] w s]; cbn [items_len] in H;
    try (destruct (IH a T H) as (l & i & w' & s' & rest & -> & Hr); eexists (_ :: l), i, w', s', rest; split; [reflexivity|exact Hr]).
  destruct (N.le_gt_cases T (a + w)) as [Hw|Hw].
  - exists [], c, w, s, t. split; [reflexivity|cbn; lia].
  - destruct (IH (a + w) T) as (l & i & w' & s' & rest & -> & Hr); [lia|].
    exists (IChar c true w s :: l), i, w', s', rest. split; [reflexivity|cbn [items_len]; lia].
Qed.

Lemma spot_head c t lvc it : exists c' t', spot ((c, None) :: t) lvc it = (c', None) :: t'.
Proof.
  unfold spot. destruct it as [id [|] n v|id ex|id vis w s].
  - cbn. eauto.
  - cbn. eauto.
  - cbn [find_pos snd].
    destruct (find_pos (fun loc : opid * option opid => match snd loc with Some b => opid_eqb b (opid_prev id) | None => false end) t) as [k|].
    + cbn. eauto.
    + destruct ex; cbn; eauto.
  - cbn. eauto.
Qed.

(* once the target is reached and a candidate without a mark stands first, that stays so *)
Lemma run_after T rest : forall idx lvc c t, exists c' t',
  iq_run T rest (mkIq idx None true lvc ((c, None) :: t)) = mkIq idx None true lvc ((c', None) :: t').
Proof.
  induction rest as [|it rest IH]; intros idx lvc c t; [exists c, t; reflexivity|].
  rewrite iq_run_cons, step_after. cbn [fst snd].
  destruct (spot_head c t lvc it) as (c' & t' & ->).
  destruct it as [id ex n v|id ex|id [|] w s]; first [apply IH|eauto].
Qed.

Theorem anchor_total (target : N) (its : list item) :
  target <= items_len its -> exists r i, anchor target its = Some (r, i).
Proof.
  intros H. unfold anchor. set (q := take_width target _).
  (* the query ends done, and with a candidate unless it has seen a visible character *)
  assert (G : iq_done q = true /\ (iq_lvc q = None -> iq_cands q <> [])).
  { subst q. destruct (N.eq_dec target 0) as [->|E].
    - rewrite N.eqb_refl. destruct (run_after 0 its 0 None head_id []) as (c & t & ->). split; [reflexivity|discriminate].
    - destruct (reach_split its 0 target) as (l & id & w & s & rest & -> & Hr); [lia|].
      rewrite run_reach by exact Hr. destruct rest as [|it rest]; [split; [reflexivity|discriminate]|].
      (* with no candidate yet, [spot] starts from the last visible character *)
      rewrite iq_run_cons.
      change (iq_step target (mkIq (items_len l + w) None true (Some id) []) it)
        with (iq_step target (mkIq (items_len l + w) None true (Some id) [(id, None)]) it).
      rewrite <- iq_run_cons. destruct (run_after target (it :: rest) (items_len l + w) (Some id) id []) as (c & t & ->).
      split; [reflexivity|discriminate]. }
  destruct G as [-> Gc]. cbn [negb].
  destruct (rev (iq_cands q)) as [|[c o] t] eqn:E; [|eauto].
  destruct (iq_lvc q); [eauto|]. destruct (Gc eq_refl).
  apply (f_equal (@rev _)) in E. rewrite rev_involutive in E. exact E.
Qed.

Theorem failed_mark_no_op_partial e t obj start end_ n v x t' er :
  (forall t1 b, do_insert_m e t obj start (AMarkBegin (x_before x) n v) = EOk (t1, b) ->
                items_len (text_items e t1 obj) = items_len (text_items e t obj)) ->
  mark_text e t obj start end_ n v x = (t', Some er) -> t' = t.
Proof.
  intros Hlen. unfold mark_text.
  destruct ((start =? end_) && x_none x); [intros H; inversion H|].
  destruct (items_len (text_items e t obj) <? start) eqn:E1; [intros H; inversion H; reflexivity|].
  destruct (items_len (text_items e t obj) <? end_) eqn:E2; [intros H; inversion H; reflexivity|].
  destruct (do_insert_m e t obj start (AMarkBegin (x_before x) n v)) as [[t1 b]|er'|] eqn:Ed;
    [|intros H; inversion H; reflexivity|intros H; inversion H; reflexivity].
  destruct (start =? end_); [intros H; inversion H|].
  apply N.ltb_ge in E2. rewrite <- (Hlen t1 b eq_refl) in E2.
  destruct (anchor_total end_ (text_items e t1 obj) E2) as (r & i & Ea). rewrite Ea.
  destruct (match pos_of (text_items e t1 obj) r with Some pr => _ | None => _ end); intros H; inversion H.
Qed.
