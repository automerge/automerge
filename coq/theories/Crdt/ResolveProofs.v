(* Proofs about Crdt/Resolve.v (C30).  [resolve_obj] is brought into a form that mentions neither the hint nor
   the actor's index ([resolve_obj_known], [resolve_obj_canonical]); the C30 theorems are read off it, with
   [lookup_type_made] for "the object table has the make op's entry". *)
From AM Require Import Base.Prelude Base.Order Codec.Bloom Codec.ExId Codec.ExIdProofs Crdt.Types Crdt.Interp Crdt.Local
  Crdt.Resolve Crdt.Txn.
Local Open Scope N_scope.

Lemma actor_in_dec (a : bytes) (t : table) : {In a t} + {~ In a t}.
Proof. apply in_dec. apply list_eq_dec. apply N.eq_dec. Qed.

Lemma denote_fst t o c a : denote t o = Some (c, a) -> fst o = c.
Proof. unfold denote. destruct (get_actor_safe t (snd o)); intros H; inversion H; reflexivity. Qed.

Lemma exid_to_opid_denote t c a h o :
  lenN t <= pow32 -> exid_to_opid t (EId c a h) = Ok o ->
  fst o = c /\ denote t o = Some (c, a) /\ c <= u32_max /\ In a t.
Proof.
  intros Hlen H.
  destruct (u32_max <? c) eqn:Ec.
  { cbn [exid_to_opid] in H. rewrite Ec in H. discriminate. }
  assert (Hc : c <= u32_max) by lia.
  destruct (actor_in_dec a t) as [Hin|Hn].
  - destruct (resolve_denotes t c a h Hc Hlen Hin) as (o' & R & D).
    rewrite R in H. inversion H; subst o'. repeat split; try assumption. exact (denote_fst t o c a D).
  - rewrite (resolve_unknown_actor t c a h Hn) in H. discriminate.
Qed.

(* an id of a known actor: the root when the counter is 0 ([ObjId::is_root]), else the object
   table's entry for (counter, actor) *)
Lemma resolve_obj_known t ops c a h :
  lenN t <= pow32 -> c <= u32_max -> In a t ->
  resolve_obj t ops (EId c a h) =
    if c =? 0 then Ok (root_id, OMap)
    else match lookup_type ops (c, a) with Some ty => Ok ((c, a), ty) | None => Err end.
Proof.
  intros Hlen Hc Hin. unfold resolve_obj.
  destruct (resolve_denotes t c a h Hc Hlen Hin) as (o & R & D).
  rewrite R. cbn [bind]. rewrite (denote_fst t o c a D), D. reflexivity.
Qed.

(* the canonical form: a function of (counter, actor), of whether the replica knows the actor,
   and of the replica's make ops — nothing else *)
Theorem resolve_obj_canonical t ops c a h :
  lenN t <= pow32 -> 0 < c ->
  resolve_obj t ops (EId c a h) =
    if u32_max <? c then Err
    else if actor_in_dec a t then
      match lookup_type ops (c, a) with Some ty => Ok ((c, a), ty) | None => Err end
    else Err.
Proof.
  intros Hlen Hc0.
  destruct (u32_max <? c) eqn:Ec.
  { unfold resolve_obj. cbn [exid_to_opid]. rewrite Ec. reflexivity. }
  destruct (actor_in_dec a t) as [Hin|Hn].
  - rewrite (resolve_obj_known t ops c a h Hlen ltac:(lia) Hin).
    assert ((c =? 0) = false) as -> by lia. reflexivity.
  - unfold resolve_obj. rewrite (resolve_unknown_actor t c a h Hn). reflexivity.
Qed.

Lemma lookup_type_in ops id ty : lookup_type ops id = Some ty -> In (id, ty) (objects ops).
Proof.
  unfold lookup_type. destruct (find _ (objects ops)) as [[i t']|] eqn:F; [|discriminate].
  intros H. inversion H; subst. apply find_some in F. destruct F as [Hin He].
  cbn [fst] in He. apply opid_eqb_spec in He. subst. exact Hin.
Qed.

Lemma lookup_type_none ops id : lookup_type ops id = None -> forall ty, ~ In (id, ty) (objects ops).
Proof.
  unfold lookup_type. destruct (find _ (objects ops)) as [[i t']|] eqn:F; [discriminate|].
  intros _ ty Hin. pose proof (find_none _ _ F _ Hin) as He. cbn [fst] in He.
  rewrite opid_eqb_refl in He. discriminate.
Qed.

Lemma objects_made ops id ty :
  In (id, ty) (objects ops) <->
  (id, ty) = (root_id, OMap) \/ exists m, In m ops /\ op_id m = id /\ make_type m = Some ty.
Proof.
  unfold objects. cbn [In]. rewrite in_flat_map. split; (intros [H|(m & Hm & H)]; [left; auto|right; exists m]).
  - destruct (make_type m) as [t'|]; [|destruct H]. destruct H as [H|[]]. inversion H. auto.
  - destruct H as [<- ->]. split; [exact Hm|left; reflexivity].
Qed.

(* with distinct op ids the table has one entry per id *)
Lemma lookup_type_made ops m ty :
  NoDup (map op_id ops) -> In m ops -> make_type m = Some ty -> 0 < fst (op_id m) ->
  lookup_type ops (op_id m) = Some ty.
Proof.
  intros Hnd Hin Mt Hc. destruct (lookup_type ops (op_id m)) as [ty'|] eqn:L.
  - apply lookup_type_in, objects_made in L. destruct L as [E|(m' & Hm' & E & Mt')].
    + injection E as E0 _. rewrite E0 in Hc. cbn in Hc. lia.
    + rewrite (NoDup_map_inj op_id ops m' m Hnd Hm' Hin E) in Mt'. congruence.
  - exfalso. apply (lookup_type_none ops _ L ty), objects_made. right. exists m. auto.
Qed.

Theorem resolve_present t ops m ty h :
  lenN t <= pow32 -> NoDup (map op_id ops) -> In m ops -> make_type m = Some ty ->
  0 < fst (op_id m) <= u32_max -> In (snd (op_id m)) t ->
  resolve_obj t ops (EId (fst (op_id m)) (snd (op_id m)) h) = Ok (op_id m, ty).
Proof.
  intros Hlen Hnd Hin Mt [Hc0 Hc] Ha.
  rewrite (resolve_obj_known t ops _ _ h Hlen Hc Ha).
  assert ((fst (op_id m) =? 0) = false) as -> by lia.
  rewrite <- surjective_pairing. rewrite (lookup_type_made ops m ty Hnd Hin Mt Hc0). reflexivity.
Qed.

Theorem resolve_table_irrelevant t1 t2 ops c a h1 h2 :
  lenN t1 <= pow32 -> lenN t2 <= pow32 -> 0 < c -> (In a t1 <-> In a t2) ->
  resolve_obj t1 ops (EId c a h1) = resolve_obj t2 ops (EId c a h2).
Proof.
  intros L1 L2 Hc Hiff. rewrite !resolve_obj_canonical by assumption.
  destruct (u32_max <? c); [reflexivity|].
  destruct (actor_in_dec a t1) as [H1|H1], (actor_in_dec a t2) as [H2|H2]; try reflexivity.
  - exfalso. apply H2, Hiff, H1.
  - exfalso. apply H1, Hiff, H2.
Qed.

Theorem resolve_stable_under_actor_insert t ops c a h h' b :
  lenN t <= pow32 -> lenN (put_actor t b) <= pow32 -> 0 < c -> In a t ->
  resolve_obj (put_actor t b) ops (EId c a h') = resolve_obj t ops (EId c a h).
Proof.
  intros L1 L2 Hc Hin. apply resolve_table_irrelevant; try assumption.
  split; intros _; [exact Hin|].
  clear -Hin. induction t as [|x r IH]; [destruct Hin|].
  cbn [put_actor]. destruct (bytes_cmp b x).
  - exact Hin.
  - right. exact Hin.
  - destruct Hin as [->|Hin]; [left; reflexivity|right; apply IH, Hin].
Qed.

Theorem resolve_same_object_any_replica t1 t2 ops1 ops2 m ty h1 h2 :
  lenN t1 <= pow32 -> lenN t2 <= pow32 ->
  NoDup (map op_id ops1) -> NoDup (map op_id ops2) -> In m ops1 -> In m ops2 ->
  make_type m = Some ty -> 0 < fst (op_id m) <= u32_max ->
  In (snd (op_id m)) t1 -> In (snd (op_id m)) t2 ->
  resolve_obj t1 ops1 (EId (fst (op_id m)) (snd (op_id m)) h1) = Ok (op_id m, ty) /\
  resolve_obj t2 ops2 (EId (fst (op_id m)) (snd (op_id m)) h2) = Ok (op_id m, ty).
Proof.
  intros L1 L2 N1 N2 I1 I2 Mt Hc A1 A2.
  split; apply resolve_present; assumption.
Qed.

Theorem resolve_ok_sound t ops c a h id ty :
  lenN t <= pow32 -> 0 < c -> resolve_obj t ops (EId c a h) = Ok (id, ty) ->
  id = (c, a) /\ In a t /\ exists m, In m ops /\ op_id m = (c, a) /\ make_type m = Some ty.
Proof.
  intros Hlen Hc H. rewrite (resolve_obj_canonical t ops c a h Hlen Hc) in H.
  destruct (u32_max <? c); [discriminate|].
  destruct (actor_in_dec a t) as [Hin|]; [|discriminate].
  destruct (lookup_type ops _) as [ty'|] eqn:L; [|discriminate].
  inversion H; subst. split; [reflexivity|]. split; [exact Hin|].
  apply lookup_type_in, objects_made in L.
  destruct L as [E|L]; [inversion E; subst; lia|exact L].
Qed.

Theorem resolve_no_panic t ops e : lenN t <= pow32 -> resolve_obj t ops e <> Panic.
Proof.
  intros Hlen. unfold resolve_obj.
  pose proof (exid_to_opid_no_panic t e Hlen) as Hn.
  destruct (exid_to_opid t e) as [o| |]; cbn [bind]; try congruence.
  destruct (fst o =? 0); [discriminate|].
  destruct (denote t o) as [id|]; [|discriminate].
  destruct (lookup_type ops id); discriminate.
Qed.

Theorem resolve_absent_is_error t ops c a h :
  lenN t <= pow32 -> 0 < c ->
  (forall m, In m ops -> op_id m = (c, a) -> make_type m = None) ->
  resolve_obj t ops (EId c a h) = Err.
Proof.
  intros Hlen Hc Habs. destruct (resolve_obj t ops (EId c a h)) as [[id ty]| |] eqn:R; [|reflexivity|].
  - destruct (resolve_ok_sound t ops c a h id ty Hlen Hc R) as (_ & _ & m & Hm & Hid & Mt).
    rewrite (Habs m Hm Hid) in Mt. discriminate.
  - destruct (resolve_no_panic t ops _ Hlen R).
Qed.

Theorem resolve_counter_zero_is_root t ops a h :
  lenN t <= pow32 -> In a t -> resolve_obj t ops (EId 0 a h) = Ok (root_id, OMap).
Proof.
  intros Hlen Hin. apply (resolve_obj_known t ops 0 a h Hlen); [vm_compute; discriminate|exact Hin].
Qed.

Theorem exid_of_resolves tp tq ops m ty e :
  lenN tp <= pow32 -> lenN tq <= pow32 -> NoDup (map op_id ops) -> In m ops -> make_type m = Some ty ->
  0 < fst (op_id m) <= u32_max -> In (snd (op_id m)) tq ->
  exid_of tp (op_id m) = Ok e ->
  resolve_obj tq ops e = Ok (op_id m, ty).
Proof.
  intros Lp Lq Hnd Hin Mt Hc Aq He. unfold exid_of in He.
  destruct (find_actor tp (snd (op_id m))) as [i|] eqn:F; [|discriminate].
  unfold id_to_exid in He. cbn [fst snd] in He.
  assert ((fst (op_id m) =? 0) = false) as E0 by lia. rewrite E0 in He. cbn [andb] in He.
  rewrite get_actor_safe_nat, (find_actor_nth _ _ _ F) in He. inversion He; subst e.
  apply resolve_present; assumption.
Qed.
