(* Crdt/InterpProofs.v — order independence of the interpretation (C01) and the
   characterisation of the reading the oracle implements (C02). *)
From AM Require Import Base.Prelude Base.ListFacts Base.Order Crdt.Types Crdt.Interp Crdt.Doc.
From Coq Require Import Sorting.Sorted.
Local Open Scope N_scope.

(* C01: the state is a function of the SET of operations *)
Theorem observe_perm (l1 l2 : list op) :
  NoDup (map op_id l1) -> Permutation l1 l2 -> observe l1 = observe l2.
Proof.
  intros ND P. unfold observe. f_equal.
  exact (kisort_perm_eq op_id opid_cmp opid_cmp_total l1 l2 ND P).
Qed.

Lemma existsb_perm {A} (f : A -> bool) l1 l2 : Permutation l1 l2 -> existsb f l1 = existsb f l2.
Proof.
  induction 1 as [|x l l' _ IH|x y l|l l' l'' _ IH1 _ IH2]; cbn.
  - reflexivity.
  - rewrite IH. reflexivity.
  - destruct (f x), (f y); reflexivity.
  - congruence.
Qed.

Lemma filter_perm {A} (f : A -> bool) l1 l2 : Permutation l1 l2 -> Permutation (filter f l1) (filter f l2).
Proof.
  induction 1 as [|x l l' _ IH|x y l|l l' l'' _ IH1 _ IH2]; cbn.
  - reflexivity.
  - destruct (f x); [apply perm_skip|]; exact IH.
  - destruct (f x), (f y); try reflexivity. apply perm_swap.
  - etransitivity; eauto.
Qed.

Theorem heads_perm (a1 a2 : list change) : Permutation a1 a2 -> heads_of a1 = heads_of a2.
Proof.
  intros P. unfold heads_of, sortN.
  apply (isort_perm_eq N.compare N_cmp_total).
  rewrite (filter_ext _ (fun h => negb (existsb (fun c => memb N.eqb h (ch_deps c)) a2))).
  - apply filter_perm. unfold hashes. apply Permutation_map, P.
  - intros h. f_equal. apply existsb_perm, P.
Qed.

Definition ops_unique (cs : list change) : Prop := NoDup (map op_id (all_ops cs)).

Theorem same_changes_same_state (a1 a2 : list change) :
  ops_unique a1 -> Permutation a1 a2 ->
  heads_of a1 = heads_of a2 /\ observe (all_ops a1) = observe (all_ops a2).
Proof.
  intros U P. split; [apply heads_perm, P|].
  apply observe_perm; [exact U|]. unfold all_ops. apply Permutation_flat_map, P.
Qed.

Theorem visible_spec (ops : list op) (o : op) :
  visible ops o = true <->
  is_inc o = false /\ is_del o = false /\
  forall s, In s ops -> names s o = true -> is_inc s = true /\ is_counter o = true.
Proof.
  unfold visible. rewrite !andb_true_iff, !negb_true_iff. split.
  - intros [[Hi Hd] He]. split; [exact Hi|]. split; [exact Hd|].
    intros s Hs Hn.
    rewrite <- not_true_iff_false in He. rewrite existsb_exists in He.
    destruct (is_inc s) eqn:E1; destruct (is_counter o) eqn:E2; try (split; reflexivity);
      exfalso; apply He; exists s; (split; [exact Hs|]);
      unfold hides; rewrite Hn, E1, E2; reflexivity.
  - intros (Hi & Hd & H). repeat split; auto.
    rewrite <- not_true_iff_false, existsb_exists. intros (s & Hs & Hh).
    unfold hides in Hh. apply andb_true_iff in Hh. destruct Hh as [Hn Hh].
    destruct (H s Hs Hn) as [E1 E2]. rewrite E1, E2 in Hh. discriminate.
Qed.

(* a counter reads as its initial value plus every increment naming it *)
Definition incs_of (ops : list op) (o : op) : list Z :=
  map inc_value (filter (fun s => names s o && is_inc s) ops).

Lemma fold_add_acc l : forall a, fold_left Z.add l a = (a + fold_left Z.add l 0)%Z.
Proof.
  induction l as [|x t IH]; intros a; cbn; [lia|]. rewrite IH, (IH x). lia.
Qed.

Theorem counter_total_spec (ops : list op) (o : op) (init : Z) :
  counter_total ops o init = (init + fold_left Z.add (incs_of ops o) 0)%Z.
Proof.
  unfold counter_total, incs_of. revert init.
  induction ops as [|s t IH]; intros init; cbn; [lia|].
  destruct (names s o && is_inc s); cbn.
  - rewrite IH. rewrite (fold_add_acc _ (inc_value s)). lia.
  - apply IH.
Qed.

Lemma register_ids_sub (vis : list vis_entry) (k : key) :
  map fst (register vis k) = map (fun e => fst (snd e)) (filter (fun e => key_eqb (fst e) k) vis).
Proof.
  unfold register. induction vis as [|e t IH]; cbn; [reflexivity|].
  destruct (key_eqb (fst e) k); cbn; rewrite IH; reflexivity.
Qed.

Lemma vis_ops_ids (ops : list op) :
  exists f, map (fun e => fst (snd e)) (vis_ops ops) = map op_id (filter f ops).
Proof.
  unfold vis_ops. generalize (visible ops), (vobs_of ops). intros p v.
  exists (fun o => p o && negb (is_mark o) && match v o with Some _ => true | None => false end).
  induction ops as [|o t IH]; cbn; [reflexivity|].
  destruct (p o && negb (is_mark o)); cbn; [|apply IH].
  destruct (v o); cbn; rewrite IH; reflexivity.
Qed.

Lemma sorted_map {A B} (R : B -> B -> Prop) (g : A -> B) l :
  StronglySorted (fun a b => R (g a) (g b)) l -> StronglySorted R (map g l).
Proof. induction 1 as [|x l _ IH Hx]; cbn [map]; constructor; [exact IH|]. apply Forall_map, Hx. Qed.

Lemma sorted_map_filter {A B} (R : B -> B -> Prop) (g : A -> B) (f : A -> bool) l :
  StronglySorted R (map g l) -> StronglySorted R (map g (filter f l)).
Proof.
  induction l as [|x l IH]; cbn [map filter]; intros S; [constructor|].
  inversion S as [|? ? Sl Hx]; subst. destruct (f x); [|exact (IH Sl)].
  constructor; [exact (IH Sl)|]. exact (incl_Forall (incl_map g (incl_filter f l)) Hx).
Qed.

(* the winner (the last entry) carries the greatest id *)
Theorem register_ascending (ops : list op) (k : key) :
  StronglySorted (le opid_cmp) (map fst (register (vis_ops (isort op_cmp ops)) k)).
Proof.
  rewrite register_ids_sub. destruct (vis_ops_ids (isort op_cmp ops)) as [f Hf].
  (* the ids of the register are a sub-list of the ids of [vis_ops], these a sub-list of the sorted op ids *)
  apply sorted_map_filter. rewrite Hf. apply sorted_map_filter, sorted_map.
  exact (kisort_sorted op_id opid_cmp opid_cmp_total ops).
Qed.

Lemma key_eqb_true a b : key_eqb a b = true -> a = b.
Proof.
  destruct a as [x|x], b as [y|y]; cbn; try discriminate; intros H; f_equal.
  - apply bytes_eqb_spec, H.
  - apply opid_eqb_spec, H.
Qed.

Lemma key_eqb_refl a : key_eqb a a = true.
Proof. destruct a as [x|x]; cbn; [apply bytes_eqb_spec|apply opid_eqb_spec]; reflexivity. Qed.

Lemma key_eqb_false a b : a <> b -> key_eqb a b = false.
Proof. intros H. destruct (key_eqb a b) eqn:E; [|reflexivity]. apply key_eqb_true in E. contradiction. Qed.

Lemma scalar_eqb_spec a b : scalar_eqb a b = true <-> a = b.
Proof.
  split.
  - destruct a, b; try discriminate; [reflexivity|..]; cbn [scalar_eqb]; intros H;
      try (apply andb_prop in H; destruct H); f_equal;
      first [apply Bool.eqb_prop | apply Z.eqb_eq | apply N.eqb_eq | apply bytes_eqb_spec]; assumption.
  - intros <-. destruct a; cbn [scalar_eqb];
      rewrite ?Bool.eqb_reflx, ?Z.eqb_refl, ?N.eqb_refl; try apply bytes_eqb_spec; reflexivity.
Qed.

Lemma register_in vis k iw : In iw (register vis k) -> In (k, iw) vis.
Proof.
  unfold register. intros H. apply in_flat_map in H. destruct H as (e & He & H).
  destruct (key_eqb (fst e) k) eqn:E; [|destruct H]. destruct H as [<-|[]].
  apply key_eqb_true in E. subst k. destruct e; exact He.
Qed.

Lemma vis_ops_visible ops s i w :
  In (s, (i, w)) (vis_ops ops) -> exists o, In o ops /\ op_id o = i /\ slot o = s /\ visible ops o = true.
Proof.
  unfold vis_ops. intros H. apply in_flat_map in H. destruct H as (o & Ho & H). exists o.
  destruct (visible ops o); [|destruct H]. destruct (negb (is_mark o)); [|destruct H].
  destruct (vobs_of ops o); [|destruct H]. destruct H as [H|[]]. inversion H. auto.
Qed.

Lemma winner_last (r : regobs) : winner r = match r with [] => None | _ => Some (last r (root_id, VS SNull)) end.
Proof.
  unfold winner. induction r as [|x t IH]; [reflexivity|].
  destruct t as [|y t']; [reflexivity|].
  change (last (map Some (x :: y :: t')) None) with (last (map Some (y :: t')) None).
  rewrite IH. reflexivity.
Qed.

Lemma winner_split (r : regobs) iw : winner r = Some iw -> r = removelast r ++ [iw].
Proof.
  intros H. rewrite winner_last in H. destruct r as [|x t]; [discriminate|].
  assert (E : last (x :: t) (root_id, VS SNull) = iw) by congruence.
  rewrite <- E. apply app_removelast_last. discriminate.
Qed.

Lemma winner_none (r : regobs) : winner r = None -> r = [].
Proof. rewrite winner_last. destruct r; [reflexivity|discriminate]. Qed.

Lemma insert_after_perm r x l : Permutation (insert_after r x l) (x :: l).
Proof.
  induction l as [|y t IH]; cbn; [reflexivity|].
  destruct (opid_eqb y r).
  - apply perm_swap.
  - rewrite IH. apply perm_swap.
Qed.

Lemma place_perm l o : Permutation (place l o) (op_id o :: l).
Proof. unfold place. destruct (opid_eqb (ref_of o) head_id); [reflexivity|apply insert_after_perm]. Qed.

Lemma fold_place_perm os acc : Permutation (fold_left place os acc) (map op_id os ++ acc).
Proof.
  revert acc. induction os as [|o t IH]; intros acc; cbn; [reflexivity|].
  rewrite IH. rewrite place_perm. apply Permutation_sym, Permutation_middle.
Qed.

Lemma elem_order_perm ops : Permutation (elem_order ops) (map op_id (filter op_insert ops)).
Proof. unfold elem_order. rewrite fold_place_perm, app_nil_r. reflexivity. Qed.

Lemma elem_order_nodup ops : NoDup (map op_id ops) -> NoDup (elem_order ops).
Proof.
  intros ND. eapply Permutation_NoDup; [apply Permutation_sym, elem_order_perm|].
  apply NoDup_map_filter, ND.
Qed.

Lemma elem_order_in ops e : In e (elem_order ops) -> exists o, In o ops /\ op_id o = e.
Proof.
  intros H. eapply Permutation_in in H; [|apply elem_order_perm].
  apply in_map_iff in H. destruct H as (o & <- & H). apply filter_In in H. exists o. tauto.
Qed.

Lemma elem_order_snoc ops n :
  elem_order (ops ++ [n]) = if op_insert n then place (elem_order ops) n else elem_order ops.
Proof.
  unfold elem_order. rewrite filter_app. cbn [filter]. destruct (op_insert n).
  - rewrite fold_left_app. reflexivity.
  - rewrite app_nil_r. reflexivity.
Qed.

Lemma insert_after_split r x l1 l2 : ~ In r l1 -> insert_after r x (l1 ++ r :: l2) = l1 ++ r :: x :: l2.
Proof.
  induction l1 as [|y t IH]; intros H; cbn.
  - rewrite opid_eqb_refl. reflexivity.
  - rewrite opid_eqb_false by (intros ->; apply H; left; reflexivity).
    rewrite IH by (intros Hin; apply H; right; exact Hin). reflexivity.
Qed.

(* non-vacuity: a conflicted register with a counter and an overwrite *)
Example interp_example :
  let a : actor := [1] in let b : actor := [2] in
  let ops := [ mkOp (1, a) root_id (KMap [120]) false (APut (SCounter 5)) [];
               mkOp (2, b) root_id (KMap [120]) false (AInc 3) [(1, a)];
               mkOp (2, a) root_id (KMap [120]) false (APut (SInt 7)) [];
               mkOp (3, b) root_id (KMap [121]) false (APut (SInt 1)) [];
               mkOp (4, b) root_id (KMap [121]) false ADel [(3, b)] ] in
  observe ops =
    [mkO root_id OMap (EM [([120], [((1, a), VC 8); ((2, a), VS (SInt 7))])])].
Proof. vm_compute. reflexivity. Qed.

Lemma in_dedup_sorted l x : In x (dedup_sorted l) <-> In x l.
Proof.
  induction l as [|a t IH]; [tauto|].
  cbn [dedup_sorted]. destruct t as [|b u]; [tauto|].
  destruct (nlist_eqb a b) eqn:E.
  - apply bytes_eqb_spec in E. subst b. rewrite IH. cbn. intuition.
  - cbn [In]. rewrite IH. cbn. intuition.
Qed.

(* one key of each run of equal keys stays: what is left of a sorted list ascends strictly *)
Lemma dedup_sorted_strict l : sorted bytes_cmp l -> StronglySorted (lt bytes_cmp) (dedup_sorted l).
Proof.
  unfold sorted. induction l as [|a t IH]; intros S; [constructor|].
  cbn [dedup_sorted]. destruct t as [|b u]; [repeat constructor|].
  inversion S as [|? ? St Ha]; subst.
  destruct (nlist_eqb a b) eqn:E; [apply IH, St|].
  constructor; [apply IH, St|].
  rewrite Forall_forall in *. intros x Hx. apply (proj1 (in_dedup_sorted _ _)) in Hx.
  pose proof (Ha x Hx) as Hax. unfold le in Hax. unfold lt.
  destruct (bytes_cmp a x) eqn:C; [exfalso|reflexivity|contradiction].
  apply (cmp_eq bytes_cmp_total) in C. subst x.
  assert (a = b).
  { destruct Hx as [->|Hx]; [reflexivity|].
    inversion St as [|? ? _ Hb]; subst. rewrite Forall_forall in Hb.
    apply (le_antisym bytes_cmp bytes_cmp_total); [apply Ha; left; reflexivity|apply Hb, Hx]. }
  subst b. assert (nlist_eqb a a = true) by (apply bytes_eqb_spec; reflexivity). congruence.
Qed.

Lemma NoDup_dedup_sorted l : sorted bytes_cmp l -> NoDup (dedup_sorted l).
Proof.
  intros S. induction (dedup_sorted_strict l S) as [|a t _ IH Ha]; constructor; [|exact IH].
  intros Hin. rewrite Forall_forall in Ha. specialize (Ha a Hin). unfold lt in Ha.
  rewrite (cmp_refl _ bytes_cmp_total) in Ha. discriminate.
Qed.
