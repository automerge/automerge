(* Crdt/SeqProofs.v — the position-level reading of put / put_object / delete / increment at an index
   of a list or text: the visible sequence changes at exactly the position the index resolves to. *)
From AM Require Import Base.Prelude Base.Order Crdt.Types Crdt.Interp Crdt.InterpProofs Crdt.Local Crdt.LocalProofs.
Local Open Scope N_scope.

Theorem seq_update_obs e t obj ty i a t' oid :
  wf_tx t -> lookup_type (tx_all t) obj = Some ty -> is_seq_type ty = true ->
  local_list_op e t obj ty i a = EOk (t', oid) ->
  let ob := observe (tx_all t) in
  let ob' := observe (tx_all t') in
  exists el r s wd p,
    seek (elem_w e ty) (seq_elems (tx_all t) obj) i 0 0 = Some (el, r, s, wd, p) /\
    (ty = OList -> p = N.to_nat i) /\
    nth_error (obs_seq ob obj) p = Some r /\
    r = reg_at (tx_all t) obj (KSeq el) /\
    update_op t obj (KSeq el) r a = EOk (t', oid) /\
    reg_at (tx_all t') obj (KSeq el) = resolved_reg (next_id t) r a /\
    obs_seq ob' obj =
      firstn p (obs_seq ob obj)
      ++ (match reg_at (tx_all t') obj (KSeq el) with [] => [] | r' => [r'] end)
      ++ skipn (S p) (obs_seq ob obj) /\
    (forall obj', obj' <> obj -> obj' <> next_id t \/ (forall nt, a <> AMake nt) ->
       obs_obj ob' obj' = obs_obj ob obj').
Proof.
  intros W L Sq H. cbv zeta.
  destruct (list_update_spec e t obj ty i a t' oid H) as (el & r & s & wd & p & Sk & Hn & Er & Hu).
  exists el, r, s, wd, p. split; [exact Sk|].
  split; [intros ->; exact (seek_unit _ _ _ _ _ _ _ _ (fun _ => eq_refl) Sk)|].
  destruct (wf_tx_parts t W) as (Srt & _ & _).
  destruct (update_op_after _ _ _ _ _ _ _ _ W L Hu) as (S' & L' & Fo).
  destruct (update_op_spec _ _ _ _ _ _ W Hu) as [Fr R].
  rewrite (obs_seq_spec _ _ ty S' L' Sq), (obs_seq_spec _ _ ty Srt L Sq).
  split; [rewrite nth_error_map, Hn; reflexivity|].
  split; [exact Er|]. split; [rewrite Er; exact Hu|]. split; [rewrite Er; exact R|].
  split; [|exact Fo].
  destruct (seq_elems_at _ obj p el r (ssorted_nodup _ Srt) Hn) as (L1 & L2 & EL & Nel & Len & Ge).
  rewrite (seq_elems_splice (tx_all t) (tx_all t') obj L1 [el] L2), seq_elems_gel, EL, flat_map_app.
  - cbn [flat_map]. rewrite Ge, !map_app, <- Len, <- (map_length snd).
    symmetry. etransitivity; [apply (firstn_skipn_splice _ [r])|]. do 2 f_equal.
    unfold gel. destruct (reg_at (tx_all t') obj (KSeq el)); reflexivity.
  - rewrite (fu_order _ _ _ _ Fr). exact EL.
  - intros x Hx. apply (fu_keys _ _ _ _ Fr). intros E. inversion E. subst x. exact (Nel Hx).
Qed.

(* a register with a counter stays non-empty under an increment *)
Lemma inc_reg_counter z r : existsb is_vc r = true -> inc_reg z r <> [].
Proof.
  unfold inc_reg, is_vc. induction r as [|[ci [s|c|ty]] r IH]; cbn [existsb flat_map snd fst orb app];
    [discriminate|exact IH|intros _; discriminate|exact IH].
Qed.

(* increment at a list index: that element's counters are incremented, its other values superseded *)
Theorem list_increment_spec e t obj i z t' :
  wf_tx t -> lookup_type (tx_all t) obj = Some OList ->
  step e t (CInc obj (PSeq i) z) = EOk t' ->
  let ob := observe (tx_all t) in
  let ob' := observe (tx_all t') in
  exists r, nth_error (obs_seq ob obj) (N.to_nat i) = Some r /\ existsb is_vc r = true /\
    obs_seq ob' obj = firstn (N.to_nat i) (obs_seq ob obj) ++ [inc_reg z r] ++ skipn (S (N.to_nat i)) (obs_seq ob obj).
Proof.
  intros W L H. destruct (with_obj_drop_id L H eq_refl) as [oid Hop].
  destruct (seq_update_obs e t obj OList i (AInc z) t' oid W L eq_refl Hop)
    as (el & r & s & wd & p & _ & P & Hn & _ & Hu & R & Hs & _).
  rewrite (P eq_refl) in *. exists r. split; [exact Hn|].
  pose proof (increment_needs_counter _ _ _ _ _ _ _ Hu) as Hc. split; [exact Hc|].
  rewrite Hs, R, (resolved_no_put _ _ (AInc z)) by discriminate.
  destruct (inc_reg z r) eqn:E; [destruct (inc_reg_counter z r Hc E)|reflexivity].
Qed.

