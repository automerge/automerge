(* Crdt/ClockProofs.v — historical reads (C07).

   [obs_at a hs] reads a document "at heads hs": it computes a per-actor
   clock over [ancestors a hs] and keeps the operations of [a] whose id is
   covered by that clock.  Under the well-formedness conditions [WFhist]
   (distinct hashes, topological order, op ids [start + i] of the change's
   actor, per-actor chains) this is the read of the document that contains
   exactly the ancestors:  [obs_at a hs = observe (all_ops (ancestors a hs))]. *)
From AM Require Import Base.Prelude Base.Order Crdt.Types Crdt.Interp Crdt.Doc Crdt.DocProofs Exec.HistExec.
Local Open Scope N_scope.

Lemma nth_error_firstn_in {A} (l : list A) : forall i j x,
  nth_error l i = Some x -> (i < j)%nat -> In x (firstn j l).
Proof.
  induction l as [|y l IH]; intros i j x Hi Hlt.
  - destruct i; discriminate.
  - destruct j as [|j]; [lia|]. cbn [firstn]. destruct i as [|i]; cbn [nth_error] in Hi.
    + left. congruence.
    + right. eapply IH; [exact Hi|lia].
Qed.

Definition Topo (a : list change) : Prop :=
  forall i c, nth_error a i = Some c ->
  forall h, In h (ch_deps c) -> has_hash (firstn i a) h = true.

Record WFhist (a : list change) : Prop := mkWFhist {
  wf_nodup : NoDup (hashes a);
  wf_topo : Topo a;
  wf_start : forall c, In c a -> 1 <= ch_start c;
  wf_opids : forall c, In c a -> forall i o, nth_error (ch_ops c) i = Some o ->
             op_id o = (ch_start c + N.of_nat i, ch_actor c);
  (* actor chains: an earlier change of the same actor is an ancestor, with smaller op counters *)
  wf_chain : forall i j c1 c2, (i < j)%nat ->
             nth_error a i = Some c1 -> nth_error a j = Some c2 -> ch_actor c1 = ch_actor c2 ->
             In c1 (ancestors a [ch_hash c2]) /\ max_op c1 < ch_start c2 }.

Lemma Topo_snoc_iff a x : Topo (a ++ [x]) <-> Topo a /\ ready a x = true.
Proof.
  assert (F : forall i, (i <= length a)%nat -> firstn i (a ++ [x]) = firstn i a).
  { intros i Hi. rewrite firstn_app. replace (i - length a)%nat with 0%nat by lia. apply app_nil_r. }
  split.
  - intros T. split.
    + intros i c Hi h Hh. assert (Hlt : (i < length a)%nat) by (apply nth_error_Some; congruence).
      rewrite <- (F i) by lia. apply (T i c); [rewrite nth_error_app1 by exact Hlt; exact Hi|exact Hh].
    + apply ready_spec. intros h Hh. rewrite <- (firstn_all a), <- (F (length a)) by lia.
      apply (T (length a) x); [rewrite nth_error_app2, Nat.sub_diag by lia; reflexivity|exact Hh].
  - intros [T Hr] i c Hi h Hh. apply nth_error_snoc in Hi. destruct Hi as [Hi|[-> ->]].
    + rewrite F by (apply Nat.lt_le_incl, nth_error_Some; congruence). exact (T i c Hi h Hh).
    + rewrite F, firstn_all by lia. exact (proj1 (ready_spec a x) Hr h Hh).
Qed.

Lemma Topo_dep_in a c h : Topo a -> In c a -> In h (ch_deps c) ->
  exists c', In c' a /\ ch_hash c' = h.
Proof.
  intros T Hc Hh. apply In_nth_error in Hc. destruct Hc as [i Hi].
  specialize (T i c Hi h Hh). apply has_hash_spec in T. destruct T as [c' [Hc' E]].
  exists c'. split; [|exact E]. eapply In_firstn. exact Hc'.
Qed.

Lemma ancestors_snoc a x hs :
  ancestors (a ++ [x]) hs =
  if memb N.eqb (ch_hash x) hs then ancestors a (ch_deps x ++ hs) ++ [x] else ancestors a hs.
Proof.
  unfold ancestors. rewrite rev_app_distr. cbn [rev app anc_rev].
  destruct (memb N.eqb (ch_hash x) hs); [cbn [rev]; reflexivity|reflexivity].
Qed.

(* what the backwards pass [ancestors] computes: the transitive closure of the dependencies *)
Inductive Anc (a : list change) (hs : list N) : change -> Prop :=
| Anc_head c : In c a -> In (ch_hash c) hs -> Anc a hs c
| Anc_dep c c' : In c a -> Anc a hs c' -> In (ch_hash c) (ch_deps c') -> Anc a hs c.

Lemma Anc_in a hs c : Anc a hs c -> In c a.
Proof. intros H. destruct H as [c Hc _|c c' Hc _ _]; exact Hc. Qed.

Lemma Anc_mono a x hs c : Anc a hs c -> Anc (a ++ [x]) hs c.
Proof.
  intros H. induction H as [c Hc Hh|c c' Hc HA IH Hd].
  - apply Anc_head; [apply in_or_app; left; exact Hc|exact Hh].
  - eapply Anc_dep; [apply in_or_app; left; exact Hc|exact IH|exact Hd].
Qed.

Lemma Anc_lift a x hs c :
  In (ch_hash x) hs -> Anc a (ch_deps x ++ hs) c -> Anc (a ++ [x]) hs c.
Proof.
  intros Hx H. induction H as [c Hc Hh|c c' Hc HA IH Hd].
  - apply in_app_or in Hh. destruct Hh as [Hh|Hh].
    + eapply Anc_dep; [apply in_or_app; left; exact Hc| |exact Hh].
      apply Anc_head; [apply in_or_app; right; left; reflexivity|exact Hx].
    + apply Anc_head; [apply in_or_app; left; exact Hc|exact Hh].
  - eapply Anc_dep; [apply in_or_app; left; exact Hc|exact IH|exact Hd].
Qed.

Lemma ancestors_Anc : forall a hs c, In c (ancestors a hs) -> Anc a hs c.
Proof.
  intros a. induction a as [|x a IH] using rev_ind; intros hs c Hc.
  - destruct Hc.
  - rewrite ancestors_snoc in Hc. destruct (memb N.eqb (ch_hash x) hs) eqn:E.
    + apply memb_N_In in E. apply in_app_or in Hc. destruct Hc as [Hc|Hc].
      * apply Anc_lift; [exact E|]. apply IH. exact Hc.
      * destruct Hc as [->|[]]. apply Anc_head; [apply in_or_app; right; left; reflexivity|exact E].
    + apply Anc_mono. apply IH. exact Hc.
Qed.

Lemma ancestors_incl : forall a hs, incl (ancestors a hs) a.
Proof. intros a hs c Hc. exact (Anc_in a hs c (ancestors_Anc a hs c Hc)). Qed.

Lemma ancestors_heads : forall a hs c, In c a -> In (ch_hash c) hs -> In c (ancestors a hs).
Proof.
  intros a. induction a as [|x a IH] using rev_ind; intros hs c Hc Hh; [destruct Hc|].
  rewrite ancestors_snoc. apply in_app_or in Hc. destruct (memb N.eqb (ch_hash x) hs) eqn:E.
  - apply in_or_app. destruct Hc as [Hc|[<-|[]]]; [left|right; left; reflexivity].
    apply IH; [exact Hc|apply in_or_app; right; exact Hh].
  - destruct Hc as [Hc|[<-|[]]]; [exact (IH hs c Hc Hh)|]. apply memb_N_In in Hh. congruence.
Qed.

(* a dependency of a member is a member: it stands earlier, where the pass still looks for it *)
Lemma ancestors_dep : forall a, NoDup (hashes a) -> Topo a -> forall hs c c',
  In c' (ancestors a hs) -> In c a -> In (ch_hash c) (ch_deps c') -> In c (ancestors a hs).
Proof.
  intros a. induction a as [|x a IH] using rev_ind; intros ND T hs c c' Hc' Hc Hd; [destruct Hc|].
  apply NoDup_hashes_snoc in ND. destruct ND as [Hnx ND]. apply Topo_snoc_iff in T. destruct T as [T _].
  rewrite ancestors_snoc in *. apply in_app_or in Hc. destruct (memb N.eqb (ch_hash x) hs).
  - apply in_or_app. destruct Hc as [Hc|[<-|[]]]; [left|right; left; reflexivity].
    apply in_app_or in Hc'. destruct Hc' as [Hc'|[<-|[]]]; [exact (IH ND T _ c c' Hc' Hc Hd)|].
    apply ancestors_heads; [exact Hc|apply in_or_app; left; exact Hd].
  - destruct Hc as [Hc|[<-|[]]]; [exact (IH ND T _ c c' Hc' Hc Hd)|].
    destruct Hnx. apply in_hashes, (Topo_dep_in a c' _ T (ancestors_incl a hs c' Hc') Hd).
Qed.

Lemma Anc_ancestors a hs c : NoDup (hashes a) -> Topo a -> Anc a hs c -> In c (ancestors a hs).
Proof.
  intros ND T H. induction H as [c Hc Hh|c c' Hc _ IH Hd].
  - exact (ancestors_heads a hs c Hc Hh).
  - exact (ancestors_dep a ND T hs c c' IH Hc Hd).
Qed.

Lemma ancestors_Anc_iff a hs c : NoDup (hashes a) -> Topo a -> (In c (ancestors a hs) <-> Anc a hs c).
Proof. intros ND T. split; [apply ancestors_Anc|apply Anc_ancestors; assumption]. Qed.

(* [ancestors a hs] as a fixpoint: the heads, and the dependencies of its members *)
Lemma ancestors_char a hs c : WFhist a ->
  (In c (ancestors a hs) <->
   In c a /\ (In (ch_hash c) hs \/
              exists c', In c' (ancestors a hs) /\ In (ch_hash c) (ch_deps c'))).
Proof.
  intros W. pose proof (wf_nodup a W) as ND. pose proof (wf_topo a W) as T. split.
  - intros H. apply ancestors_Anc in H. destruct H as [c Hc Hh|c c' Hc HA Hd]; (split; [exact Hc|]); [left; exact Hh|].
    right. exists c'. split; [apply Anc_ancestors; assumption|exact Hd].
  - intros [Hc [Hh|[c' [HA Hd]]]]; [exact (ancestors_heads a hs c Hc Hh)|exact (ancestors_dep a ND T hs c c' HA Hc Hd)].
Qed.

Lemma Anc_trans a hs c c' : NoDup (hashes a) -> Anc a hs c' -> Anc a [ch_hash c'] c -> Anc a hs c.
Proof.
  intros ND Hc' Hc. induction Hc as [c Hc Hh|c d Hc HA IH Hd].
  - destruct Hh as [Hh|[]]. rewrite (NoDup_hash_inj a ND c c' Hc (Anc_in _ _ _ Hc') (eq_sym Hh)). exact Hc'.
  - eapply Anc_dep; [exact Hc|exact IH|exact Hd].
Qed.

Lemma ancestors_trans a hs c c' : WFhist a ->
  In c' (ancestors a hs) -> In c (ancestors a [ch_hash c']) -> In c (ancestors a hs).
Proof. intros W. rewrite !(ancestors_Anc_iff a _ _ (wf_nodup a W) (wf_topo a W)). apply Anc_trans, W. Qed.

(* ancestors is the filter of [a] by membership (same order as [a]) *)
Lemma ancestors_filter : forall a, NoDup (hashes a) -> forall hs,
  ancestors a hs = filter (fun c => has_hash (ancestors a hs) (ch_hash c)) a.
Proof.
  intros a. induction a as [|x a IH] using rev_ind; intros ND hs; [reflexivity|].
  apply NoDup_hashes_snoc in ND. destruct ND as [Hnx ND'].
  rewrite ancestors_snoc. destruct (memb N.eqb (ch_hash x) hs) eqn:E.
  - rewrite filter_app. f_equal.
    + rewrite (IH ND' (ch_deps x ++ hs)) at 1. apply filter_ext_in. intros c Hc.
      rewrite has_hash_app. cbn [has_hash existsb].
      assert (ch_hash x =? ch_hash c = false) as ->; [|rewrite !orb_false_r; reflexivity].
      apply N.eqb_neq. intros Heq. apply Hnx. rewrite Heq. apply in_hashes. exists c. auto.
    + cbn [filter]. rewrite has_hash_app. cbn [has_hash existsb].
      rewrite N.eqb_refl, orb_true_l, orb_true_r. reflexivity.
  - rewrite filter_app. cbn [filter].
    assert (has_hash (ancestors a hs) (ch_hash x) = false) as ->.
    { destruct (has_hash (ancestors a hs) (ch_hash x)) eqn:Hh; [|reflexivity].
      exfalso. apply has_hash_spec in Hh. destruct Hh as [c [Hc Hh]].
      apply Hnx. apply in_hashes. exists c. split; [eapply ancestors_incl; exact Hc|exact Hh]. }
    rewrite app_nil_r. apply IH. exact ND'.
Qed.

Lemma clock_get_set k a n b :
  clock_get (clock_set k a n) b = if same_actor b a then N.max (clock_get k b) n else clock_get k b.
Proof.
  induction k as [|[d m] k IH]; cbn [clock_set clock_get].
  - destruct (same_actor b a); [rewrite N.max_0_l|]; reflexivity.
  - destruct (same_actor a d) eqn:Ed; cbn [clock_get].
    + apply same_actor_spec in Ed. subst d. destruct (same_actor b a); reflexivity.
    + rewrite IH. destruct (same_actor b d) eqn:Eb; [|reflexivity].
      apply same_actor_spec in Eb. subst d. destruct (same_actor b a) eqn:Ea; [|reflexivity].
      apply same_actor_spec in Ea. subst b. rewrite (proj2 (same_actor_spec a a) eq_refl) in Ed. discriminate.
Qed.

Lemma clock_of_snoc cs x : clock_of (cs ++ [x]) = clock_set (clock_of cs) (ch_actor x) (max_op x).
Proof. unfold clock_of. rewrite fold_left_app. reflexivity. Qed.

(* the clock covers a counter of an actor iff one of the actor's changes reaches it *)
Lemma clock_of_covers cs b n : 0 < n ->
  (n <= clock_get (clock_of cs) b <-> Exists (fun c => ch_actor c = b /\ n <= max_op c) cs).
Proof.
  intros Hn. induction cs as [|x cs IH] using rev_ind.
  - rewrite Exists_nil. cbn. lia.
  - rewrite clock_of_snoc, clock_get_set, Exists_app, Exists_cons, Exists_nil, <- IH.
    destruct (same_actor b (ch_actor x)) eqn:Eb.
    + apply same_actor_spec in Eb. symmetry in Eb. rewrite N.max_le_iff. tauto.
    + assert (ch_actor x <> b) by (intros <-; rewrite (proj2 (same_actor_spec _ _) eq_refl) in Eb; discriminate).
      tauto.
Qed.

Theorem covered_iff_ancestor : forall a hs, WFhist a -> forall c o, In c a -> In o (ch_ops c) ->
  (covered (clock_of (ancestors a hs)) (op_id o) = true <-> In c (ancestors a hs)).
Proof.
  intros a hs W c o Hc Ho.
  destruct (In_nth_error _ _ Ho) as [i Hi].
  assert (Hlen : (i < length (ch_ops c))%nat) by (apply nth_error_Some; congruence).
  pose proof (wf_start a W c Hc) as Hs.
  unfold covered. rewrite (wf_opids a W c Hc i o Hi). cbn [fst snd].
  rewrite N.leb_le, clock_of_covers, Exists_exists by lia.
  split.
  - intros (c' & Hc' & Ea & Hle).
    assert (Hc'a : In c' a) by (eapply ancestors_incl; exact Hc').
    destruct (In_nth_error _ _ Hc) as [p Hp]. destruct (In_nth_error _ _ Hc'a) as [q Hq].
    destruct (lt_eq_lt_dec p q) as [[Hlt|Heq]|Hgt].
    + destruct (wf_chain a W p q c c' Hlt Hp Hq (eq_sym Ea)) as [Hin _].
      eapply ancestors_trans; [exact W|exact Hc'|exact Hin].
    + subst q. assert (c = c') as -> by congruence. exact Hc'.
    + destruct (wf_chain a W q p c' c Hgt Hq Hp Ea) as [_ Hlt]. lia.
  - intros Hin. exists c. split; [exact Hin|]. split; [reflexivity|]. unfold max_op. lia.
Qed.

Lemma filter_all_ops (f : op -> bool) (p : change -> bool) l :
  (forall c, In c l -> forall o, In o (ch_ops c) -> f o = p c) ->
  filter f (all_ops l) = all_ops (filter p l).
Proof.
  unfold all_ops. induction l as [|c l IH]; intros H; [reflexivity|].
  cbn [flat_map filter]. rewrite filter_app.
  rewrite IH by (intros c' Hc'; apply H; right; exact Hc').
  specialize (H c (or_introl eq_refl)). destruct (p c).
  - cbn [flat_map]. f_equal. apply filter_all_true. exact H.
  - rewrite (filter_all_false f (ch_ops c) H). reflexivity.
Qed.

Theorem filter_covered_eq : forall a hs, WFhist a ->
  filter (fun o => covered (clock_of (ancestors a hs)) (op_id o)) (all_ops a) = all_ops (ancestors a hs).
Proof.
  intros a hs W.
  transitivity (all_ops (filter (fun c => has_hash (ancestors a hs) (ch_hash c)) a));
    [|f_equal; symmetry; apply ancestors_filter, (wf_nodup a W)].
  apply filter_all_ops. intros c Hc o Ho. apply eq_true_iff_eq.
  rewrite (covered_iff_ancestor a hs W c o Hc Ho). symmetry.
  apply (has_hash_mem a); [apply NoDup_hash_inj, (wf_nodup a W)|apply ancestors_incl|exact Hc].
Qed.

(* C07: a read at heads equals the read of the document restricted to the ancestors *)
Theorem obs_at_eq_restrict : forall a hs, WFhist a ->
  obs_at a hs = observe (all_ops (ancestors a hs)).
Proof.
  intros a hs W. unfold obs_at. cbv zeta. rewrite (filter_covered_eq a hs W). reflexivity.
Qed.

Fixpoint nodupb (l : list N) : bool :=
  match l with [] => true | x :: t => negb (memb N.eqb x t) && nodupb t end.

Definition topo_b (a : list change) : bool :=
  forallb (fun i => match nth_error a i with
                    | Some c => forallb (has_hash (firstn i a)) (ch_deps c)
                    | None => true
                    end) (seq 0 (length a)).

Fixpoint op_ids_b (act : actor) (n : N) (ops : list op) : bool :=
  match ops with
  | [] => true
  | o :: t => opid_eqb (op_id o) (n, act) && op_ids_b act (n + 1) t
  end.

Definition change_ok_b (c : change) : bool :=
  (1 <=? ch_start c) && op_ids_b (ch_actor c) (ch_start c) (ch_ops c).

Definition chain_b (a : list change) : bool :=
  forallb (fun j => match nth_error a j with
                    | Some c2 =>
                      let anc := ancestors a [ch_hash c2] in
                      forallb (fun c1 => negb (same_actor (ch_actor c1) (ch_actor c2))
                                         || (has_hash anc (ch_hash c1) && (max_op c1 <? ch_start c2)))
                              (firstn j a)
                    | None => true
                    end) (seq 0 (length a)).

Definition wf_hist_b (a : list change) : bool :=
  nodupb (hashes a) && topo_b a && forallb change_ok_b a && chain_b a.

Lemma nodupb_sound l : nodupb l = true -> NoDup l.
Proof.
  induction l as [|x l IH]; cbn [nodupb]; intros H; [constructor|].
  apply andb_true_iff in H. destruct H as [H1 H2]. constructor; [|apply IH, H2].
  intros Hin. apply memb_N_In in Hin. rewrite Hin in H1. discriminate.
Qed.

Lemma forallb_seq_sound (f : nat -> bool) n :
  forallb f (seq 0 n) = true -> forall i, (i < n)%nat -> f i = true.
Proof.
  intros H i Hi. rewrite forallb_forall in H. apply H. apply in_seq. lia.
Qed.

Lemma topo_b_sound a : topo_b a = true -> Topo a.
Proof.
  unfold topo_b. intros H i c Hi h Hh.
  assert (Hlt : (i < length a)%nat) by (apply nth_error_Some; congruence).
  pose proof (forallb_seq_sound _ _ H i Hlt) as Hf. cbv beta in Hf. rewrite Hi in Hf.
  rewrite forallb_forall in Hf. apply Hf, Hh.
Qed.

Lemma op_ids_b_sound act ops : forall n, op_ids_b act n ops = true ->
  forall i o, nth_error ops i = Some o -> op_id o = (n + N.of_nat i, act).
Proof.
  induction ops as [|x ops IH]; intros n H i o Hi; [destruct i; discriminate|].
  cbn [op_ids_b] in H. apply andb_true_iff in H. destruct H as [H1 H2].
  destruct i as [|i]; cbn [nth_error] in Hi.
  - assert (x = o) as <- by congruence. apply opid_eqb_spec in H1. rewrite H1. f_equal. lia.
  - rewrite (IH (n + 1) H2 i o Hi). f_equal. lia.
Qed.

Theorem wf_hist_b_sound a : wf_hist_b a = true -> WFhist a.
Proof.
  unfold wf_hist_b. rewrite !andb_true_iff, forallb_forall. intros [[[H1 H2] H3] H4].
  pose proof (nodupb_sound _ H1) as ND.
  assert (Ok : forall c, In c a -> 1 <= ch_start c /\ op_ids_b (ch_actor c) (ch_start c) (ch_ops c) = true).
  { intros c Hc. specialize (H3 c Hc). unfold change_ok_b in H3. rewrite andb_true_iff, N.leb_le in H3. exact H3. }
  constructor.
  - exact ND.
  - apply topo_b_sound, H2.
  - intros c Hc. apply (Ok c Hc).
  - intros c Hc i o Hi. eapply op_ids_b_sound; [apply (Ok c Hc)|exact Hi].
  - intros i j c1 c2 Hlt Hi Hj Ea. unfold chain_b in H4.
    assert (Hjl : (j < length a)%nat) by (apply nth_error_Some; congruence).
    pose proof (forallb_seq_sound _ _ H4 j Hjl) as Hf. cbv beta in Hf. rewrite Hj in Hf.
    cbv zeta in Hf. rewrite forallb_forall in Hf.
    specialize (Hf c1 (nth_error_firstn_in a i j c1 Hi Hlt)).
    rewrite (proj2 (same_actor_spec _ _) Ea) in Hf. cbn [negb orb] in Hf.
    rewrite andb_true_iff, N.ltb_lt in Hf. destruct Hf as [Hh Hm]. split; [|exact Hm].
    apply (has_hash_mem a); [exact (NoDup_hash_inj a ND)|apply ancestors_incl|eapply nth_error_In; exact Hi|exact Hh].
Qed.

(* examples: two actors, two branches, a merge *)

Module Ex.
  Definition actA : actor := [1].
  Definition actB : actor := [2].
  Definition kx : key := KMap [120].
  Definition ky : key := KMap [121].
  Definition o1 := mkOp (1, actA) root_id kx false (APut (SInt 1)) [].
  Definition o2 := mkOp (2, actB) root_id kx false (APut (SInt 2)) [(1, actA)].
  Definition o3 := mkOp (2, actA) root_id ky false (APut (SInt 3)) [].
  Definition o4 := mkOp (3, actA) root_id kx false (APut (SInt 4)) [(2, actB)].
  Definition c1 := mkChange 101 actA 1 1 [] [o1].
  Definition c2 := mkChange 102 actB 1 2 [101] [o2].
  Definition c3 := mkChange 103 actA 2 2 [101] [o3].
  Definition c4 := mkChange 104 actA 3 3 [102; 103] [o4].         (* the merge *)
  Definition c5 := mkChange 105 actB 2 3 [102] [].                (* an empty change *)
  Definition hist := [c1; c2; c3; c4].
  Definition hist5 := [c1; c2; c3; c4; c5].

  Example hist_wf_b : wf_hist_b hist = true.
  Proof. vm_compute. reflexivity. Qed.
  Example hist_wf : WFhist hist.
  Proof. apply wf_hist_b_sound, hist_wf_b. Qed.
  Example hist5_wf_b : wf_hist_b hist5 = true.
  Proof. vm_compute. reflexivity. Qed.

  Example anc_B : ancestors hist [102] = [c1; c2].
  Proof. vm_compute. reflexivity. Qed.
  Example anc_A : ancestors hist [103] = [c1; c3].
  Proof. vm_compute. reflexivity. Qed.
  Example anc_all : ancestors hist [104] = hist.
  Proof. vm_compute. reflexivity. Qed.
  Example anc_empty_change : ancestors hist5 [105] = [c1; c2; c5].
  Proof. vm_compute. reflexivity. Qed.

  (* reads at one branch / at the merge / at both branch heads *)
  Example obs_B : obs_at hist [102] =
    [mkO root_id OMap (EM [([120], [((2, actB), VS (SInt 2))])])].
  Proof. vm_compute. reflexivity. Qed.
  Example obs_A : obs_at hist [103] =
    [mkO root_id OMap (EM [([120], [((1, actA), VS (SInt 1))]); ([121], [((2, actA), VS (SInt 3))])])].
  Proof. vm_compute. reflexivity. Qed.
  Example obs_merge : obs_at hist [104] =
    [mkO root_id OMap (EM [([120], [((3, actA), VS (SInt 4))]); ([121], [((2, actA), VS (SInt 3))])])].
  Proof. vm_compute. reflexivity. Qed.
  Example obs_AB : obs_at hist [102; 103] =
    [mkO root_id OMap (EM [([120], [((2, actB), VS (SInt 2))]); ([121], [((2, actA), VS (SInt 3))])])].
  Proof. vm_compute. reflexivity. Qed.
  Example obs_empty_change : obs_at hist5 [105] = obs_at hist [102].
  Proof. vm_compute. reflexivity. Qed.

  (* the theorem, instantiated (no computation of [obs_at]) *)
  Example obs_B_restrict : obs_at hist [102] = observe (all_ops [c1; c2]).
  Proof. rewrite (obs_at_eq_restrict hist [102] hist_wf), anc_B. reflexivity. Qed.

  (* the actor-chain hypothesis is needed: a second change of actor A that does not depend on
     the first one makes the clock at [103] cover o1 although c1 is not an ancestor *)
  Definition bad3 := mkChange 103 actA 2 2 [] [o3].
  Definition bad_hist := [c1; bad3].
  Example bad_rejected : wf_hist_b bad_hist = false.
  Proof. vm_compute. reflexivity. Qed.
  Example bad_differs : obs_at bad_hist [103] <> observe (all_ops (ancestors bad_hist [103])).
  Proof. vm_compute. discriminate. Qed.
End Ex.
