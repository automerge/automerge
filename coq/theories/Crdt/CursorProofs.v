(* Crdt/CursorProofs.v — cursors (C26).  Both move modes come down to the width of the visible
   elements before the cursor's element ([resolve_at]); MoveCursor::Before on a hidden element walks
   the reference chain ([chain_to], [walk_before_spec]); in a list a fresh cursor resolves to the index
   it was taken at ([list_fresh_cursor]). *)
From AM Require Import Base.Prelude Base.ListFacts Base.Order Crdt.Types Crdt.Interp Crdt.InterpProofs Crdt.Cursor.
Local Open Scope N_scope.

Lemma sumN_app a b : sumN (a ++ b) = sumN a + sumN b.
Proof. unfold sumN. induction a as [|x a IH]; cbn [app fold_right]; [lia|]. rewrite IH. lia. Qed.

Section Proofs.
  Variable width : regobs -> N.

  Lemma index_in_spec oops pre e post : forall acc,
    ~ In e pre ->
    index_in width oops (pre ++ e :: post) e acc
      = Some (acc + sumN (map (elem_width width oops) pre)).
  Proof.
    induction pre as [|x pre IH]; intros acc Hn; cbn [app index_in map].
    - rewrite opid_eqb_refl. unfold sumN; cbn. f_equal. lia.
    - rewrite opid_eqb_false by (intros ->; apply Hn; left; reflexivity).
      rewrite IH by (intros H; apply Hn; right; exact H).
      unfold sumN; cbn [fold_right]. f_equal. lia.
  Qed.

  Lemma index_in_split oops els e : forall acc i,
    index_in width oops els e acc = Some i ->
    exists pre post, els = pre ++ e :: post /\ ~ In e pre /\
                     i = acc + sumN (map (elem_width width oops) pre).
  Proof.
    induction els as [|x t IH]; intros acc i H; cbn [index_in] in H; [discriminate|].
    destruct (opid_eqb x e) eqn:E.
    - apply opid_eqb_spec in E. subst x. inversion H; subst.
      exists [], t. repeat split; [intros []|]. unfold sumN; cbn. lia.
    - apply IH in H. destruct H as (pre & post & -> & Hn & ->).
      exists (x :: pre), post. repeat split.
      + intros [->|Hin]; [rewrite opid_eqb_refl in E; discriminate|contradiction].
      + unfold sumN; cbn [map fold_right]. lia.
  Qed.

  Lemma index_in_none oops els e : forall acc,
    index_in width oops els e acc = None <-> ~ In e els.
  Proof.
    induction els as [|x t IH]; intros acc; cbn [index_in].
    - split; [intros _ []|reflexivity].
    - destruct (opid_eqb x e) eqn:E.
      + apply opid_eqb_spec in E. subst. split; [discriminate|]. intros H. exfalso. apply H. left. reflexivity.
      + rewrite IH. split.
        * intros H [->|Hin]; [rewrite opid_eqb_refl in E; discriminate|contradiction].
        * intros H Hin. apply H. right. exact Hin.
  Qed.

  Lemma vis_elems_split oops pre e post :
    elem_order oops = pre ++ e :: post ->
    vis_elems oops = filter (elem_vis oops) pre
                     ++ (if elem_vis oops e then [e] else [])
                     ++ filter (elem_vis oops) post.
  Proof.
    intros H. unfold vis_elems. rewrite H, filter_app. cbn [filter].
    destruct (elem_vis oops e); reflexivity.
  Qed.

  (* both modes start from the total width of the visible elements before the cursor's element, whether or
     not that element is still visible *)
  Lemma resolve_at oops mode c o pre post :
    find_op oops c = Some o -> is_inc o = false -> is_del o = false ->
    elem_order oops = pre ++ elem_of o :: post -> ~ In (elem_of o) pre ->
    resolve width oops mode c =
      let i := sumN (map (elem_width width oops) pre) in
      match mode with
      | MoveAfter => Ok i
      | MoveBefore =>
        if elem_vis oops (elem_of o) || (i =? 0) then Ok i
        else walk_before width (S (length oops)) oops (if op_insert o then ref_of o else elem_of o)
      end.
  Proof.
    intros Hf Hi Hd Ho Hn. unfold resolve, index_of. rewrite Hf, Hi, Hd, Ho, index_in_spec by exact Hn. reflexivity.
  Qed.

  (* an unknown op, an increment or a delete is not a cursor *)
  Theorem resolve_unknown oops mode c : find_op oops c = None -> resolve width oops mode c = Err.
  Proof. intros H. unfold resolve. rewrite H. reflexivity. Qed.

  (* the walk of MoveCursor::Before: the nearest visible element along the reference chain *)
  Inductive chain_to (oops : list op) : opid -> option opid -> Prop :=
  | CT_end k : k = head_id \/ find_op oops k = None \/
               (exists o, find_op oops k = Some o /\ index_of width oops (elem_of o) = None) ->
               chain_to oops k None
  | CT_hit k o i : k <> head_id -> find_op oops k = Some o ->
               index_of width oops (elem_of o) = Some i -> elem_vis oops (elem_of o) = true ->
               chain_to oops k (Some (elem_of o))
  | CT_step k o i r : k <> head_id -> find_op oops k = Some o ->
               index_of width oops (elem_of o) = Some i -> elem_vis oops (elem_of o) = false ->
               chain_to oops (ref_of o) r -> chain_to oops k r.

  Theorem walk_before_spec oops : forall fuel k i,
    walk_before width fuel oops k = Ok i ->
    exists r, chain_to oops k r /\
              match r with None => i = 0 | Some a => index_of width oops a = Some i end.
  Proof.
    induction fuel as [|f IH]; intros k i H; cbn [walk_before] in H; [discriminate|].
    destruct (opid_eqb k head_id) eqn:Ek.
    { apply opid_eqb_spec in Ek. inversion H; subst. exists None. split; [constructor; left; reflexivity|reflexivity]. }
    assert (Hk : k <> head_id) by (intros ->; rewrite opid_eqb_refl in Ek; discriminate).
    destruct (find_op oops k) as [o|] eqn:Ef.
    2:{ inversion H; subst. exists None. split; [constructor; right; left; exact Ef|reflexivity]. }
    destruct (index_of width oops (elem_of o)) as [j|] eqn:Ei.
    2:{ inversion H; subst. exists None. split; [|reflexivity].
        constructor. right. right. exists o. split; [exact Ef|exact Ei]. }
    destruct (elem_vis oops (elem_of o)) eqn:Ev.
    - inversion H; subst. exists (Some (elem_of o)). split; [|exact Ei].
      eapply CT_hit; eauto.
    - apply IH in H. destruct H as (r & Hc & Hr). exists r. split; [|exact Hr].
      eapply CT_step; eauto.
  Qed.

  Theorem resolve_before_hidden oops c o pre post i :
    find_op oops c = Some o -> is_inc o = false -> is_del o = false ->
    elem_order oops = pre ++ elem_of o :: post -> ~ In (elem_of o) pre ->
    elem_vis oops (elem_of o) = false ->
    resolve width oops MoveBefore c = Ok i ->
    (* nothing visible before it: position 0 *)
    (sumN (map (elem_width width oops) pre) = 0 /\ i = 0) \/
    (* otherwise the nearest visible element along the insertion chain, or 0 *)
    exists r, chain_to oops (if op_insert o then ref_of o else elem_of o) r /\
              match r with None => i = 0 | Some a => index_of width oops a = Some i end.
  Proof.
    intros Hf Hi Hd Ho Hn Hv H. rewrite (resolve_at oops MoveBefore c o pre post Hf Hi Hd Ho Hn), Hv in H.
    cbn [orb] in H. destruct (sumN (map (elem_width width oops) pre) =? 0) eqn:E0.
    - left. apply N.eqb_eq in E0. inversion H; subst. split; [exact E0|]. lia.
    - right. eapply walk_before_spec. exact H.
  Qed.
End Proofs.

Lemma sum_widths_list oops l :
  sumN (map (elem_width width_list oops) l) = N.of_nat (length (filter (elem_vis oops) l)).
Proof.
  induction l as [|x l IH]; [reflexivity|].
  cbn [map filter]. unfold sumN in *. cbn [fold_right]. rewrite IH.
  unfold elem_width, elem_vis, width_list. destruct (elem_reg oops x); cbn [length]; lia.
Qed.

(* a list cursor points at its element while the element is visible; once the element is gone,
   After points at the next surviving element, or at the end (= length) *)
Theorem list_cursor_after oops c o pre post :
  find_op oops c = Some o -> is_inc o = false -> is_del o = false ->
  elem_order oops = pre ++ elem_of o :: post -> ~ In (elem_of o) pre ->
  exists i, resolve width_list oops MoveAfter c = Ok (N.of_nat i) /\
    i = length (filter (elem_vis oops) pre) /\
    (elem_vis oops (elem_of o) = true -> nth_error (vis_elems oops) i = Some (elem_of o)) /\
    (elem_vis oops (elem_of o) = false ->
       nth_error (vis_elems oops) i = hd_error (filter (elem_vis oops) post) /\
       (filter (elem_vis oops) post = [] -> i = length (vis_elems oops))).
Proof.
  intros Hf Hi Hd Ho Hn. exists (length (filter (elem_vis oops) pre)).
  split; [|split; [reflexivity|]].
  - rewrite (resolve_at width_list oops MoveAfter c o pre post Hf Hi Hd Ho Hn). cbv zeta. rewrite sum_widths_list. reflexivity.
  - rewrite (vis_elems_split oops pre (elem_of o) post Ho). split; intros Hv; rewrite Hv.
    + rewrite nth_error_app2 by lia. rewrite Nat.sub_diag. reflexivity.
    + cbn [app]. split.
      * rewrite nth_error_app2 by lia. rewrite Nat.sub_diag.
        destruct (filter (elem_vis oops) post); reflexivity.
      * intros ->. rewrite app_nil_r. reflexivity.
Qed.

Lemma find_op_unique oops o : NoDup (map op_id oops) -> In o oops -> find_op oops (op_id o) = Some o.
Proof.
  intros ND Hin. unfold find_op. destruct (find _ oops) as [o'|] eqn:E.
  - apply find_some in E. destruct E as [Hin' E]. apply opid_eqb_spec in E.
    f_equal. exact (NoDup_map_inj op_id oops o' o ND Hin' Hin E).
  - apply (find_none _ _ E) in Hin. rewrite opid_eqb_refl in Hin. discriminate.
Qed.

Lemma slot_elem_of o e : slot o = KSeq e -> elem_of o = e.
Proof.
  unfold slot, elem_of. destruct (op_key o) as [s|k]; [discriminate|].
  intros H. inversion H. reflexivity.
Qed.

Lemma elem_at_split (w : regobs -> N) oops els : forall i e,
  elem_at w oops els i = Some e ->
  exists pre post, els = pre ++ e :: post /\
    sumN (map (elem_width w oops) pre) <= i < sumN (map (elem_width w oops) pre) + elem_width w oops e.
Proof.
  induction els as [|x t IH]; intros i e H; cbn [elem_at] in H; [discriminate|].
  destruct ((0 <? elem_width w oops x) && (i <? elem_width w oops x)) eqn:E.
  - inversion H; subst. exists [], t. split; [reflexivity|]. unfold sumN; cbn. lia.
  - apply IH in H. destruct H as (pre & post & -> & Hr).
    exists (x :: pre), post. split; [reflexivity|]. unfold sumN in *. cbn [map fold_right].
    assert (elem_width w oops x <= i) by lia. lia.
Qed.

(* get_cursor_position(get_cursor(i)) = i, for both move modes, in a list *)
Theorem list_fresh_cursor oops i c mode :
  NoDup (map op_id oops) ->
  cursor_at width_list oops i = Some c ->
  resolve width_list oops mode c = Ok i.
Proof.
  intros ND H. unfold cursor_at in H.
  destruct (elem_at width_list oops (elem_order oops) i) as [e|] eqn:Ea; [|discriminate].
  destruct (winner (elem_reg oops e)) as [[id v]|] eqn:Ew; [|discriminate]. inversion H; subst id.
  (* the winner is a visible value op of the element *)
  assert (Hreg : In (c, v) (elem_reg oops e)).
  { rewrite (winner_split _ _ Ew). apply in_or_app. right. left. reflexivity. }
  destruct (vis_ops_visible _ _ _ _ (register_in _ _ _ Hreg)) as (o & Hin & <- & Hs & Hv).
  apply slot_elem_of in Hs. apply visible_spec in Hv. destruct Hv as (Hi & Hd & _).
  pose proof (find_op_unique oops o ND Hin) as Hf.
  apply elem_at_split in Ea. destruct Ea as (pre & post & Ho & Hr).
  assert (Hn : ~ In e pre).
  { pose proof (elem_order_nodup oops ND) as N0. rewrite Ho in N0.
    apply NoDup_remove_2 in N0. intros Hp. apply N0. apply in_or_app. left. exact Hp. }
  assert (Hvw : elem_vis oops e = true /\ elem_width width_list oops e = 1).
  { unfold elem_vis, elem_width, width_list. destruct (elem_reg oops e); [contradiction|auto]. }
  destruct Hvw as [Hvis Hw]. rewrite Hw in Hr. rewrite <- Hs in Ho, Hn, Hvis.
  rewrite (resolve_at width_list oops mode _ o pre post Hf Hi Hd Ho Hn), Hvis.
  replace i with (sumN (map (elem_width width_list oops) pre)) by lia. destruct mode; reflexivity.
Qed.

(* non-vacuity: a three element list, the middle one deleted; a cursor on the deleted element *)
Example cursor_example :
  let a : actor := [1] in
  let l : opid := (1, a) in
  let oops := [ mkOp (2, a) l (KSeq head_id) true (APut (SInt 10)) [];
                mkOp (3, a) l (KSeq (2, a)) true (APut (SInt 20)) [];
                mkOp (4, a) l (KSeq (3, a)) true (APut (SInt 30)) [];
                mkOp (5, a) l (KSeq (3, a)) false ADel [(3, a)] ] in
  NoDup (map op_id oops) /\
  vis_elems oops = [(2, a); (4, a)] /\
  resolve width_list oops MoveAfter (3, a) = Ok 1 /\
  resolve width_list oops MoveBefore (3, a) = Ok 0 /\
  resolve width_list oops MoveAfter (4, a) = Ok 1 /\
  cursor_at width_list oops 1 = Some (4, a).
Proof.
  cbv zeta. split.
  - repeat constructor; cbn; intuition discriminate.
  - vm_compute. repeat split; reflexivity.
Qed.
