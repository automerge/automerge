(* Crdt/PruneProofs.v — a local commit discards held changes of a conflicting branch of its actor
   (C38, third sentence): [m_commit] (Crdt/Commit.v) mirrors [transaction_args], which calls
   [queue.remove_actor_branch_from(actor, seq)] (Crdt/Doc.v). *)
From AM Require Import Base.Prelude Base.ListFacts Base.Order Crdt.Types Crdt.Doc Crdt.Commit.
Local Open Scope N_scope.

Lemma branch_closure_incl fuel q : forall removed, incl removed (branch_closure fuel q removed).
Proof.
  induction fuel as [|f IH]; intros removed; cbn [branch_closure]; [apply incl_refl|].
  destruct (filter _ q) as [|x more] eqn:E; [apply incl_refl|].
  eapply incl_tran; [|apply IH]. apply incl_appl, incl_refl.
Qed.

(* nothing of that actor at or above the sequence number stays held *)
Theorem remove_actor_branch_spec q a s c :
  In c (remove_actor_branch_from q a s) ->
  In c q /\ ~ (same_actor (ch_actor c) a = true /\ s <= ch_seq c).
Proof.
  unfold remove_actor_branch_from. intros H. apply filter_In in H. destruct H as [Hin Hn].
  split; [exact Hin|]. intros [Ha Hs]. apply negb_true_iff, not_true_iff_false in Hn. apply Hn.
  apply memb_N_In, branch_closure_incl, in_map, filter_In. split; [exact Hin|]. rewrite Ha. apply N.leb_le, Hs.
Qed.

(* a local commit (also an empty one that creates no change) leaves no held change of the committing
   actor with the claimed or a later sequence number, and holds back nothing new *)
Theorem commit_discards_conflicting_branch m r m' oc meta :
  m_commit m r = Ok (m', oc) ->
  commit_meta (applied (m_doc m)) (m_get_heads m) (cr_actor r) (cr_iso r) = Ok meta ->
  forall c, In c (queue (m_doc m')) ->
    In c (queue (m_doc m)) /\
    ~ (same_actor (ch_actor c) (cm_actor meta) = true /\ cm_seq meta <= ch_seq c).
Proof.
  unfold m_commit. intros H Hm. rewrite Hm in H. cbn [bind] in H.
  intros c Hc. apply remove_actor_branch_spec.
  destruct (cr_ops r), (cr_force r); inversion H; subst; cbn [m_doc queue] in Hc; exact Hc.
Qed.
