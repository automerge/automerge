(* Crdt/CommitProofs.v — theorems about Crdt/Commit.v (C04) and about get_changes (C10).

   [Built a]: the applied list was built by appending changes whose dependencies were already
   applied and whose hash was new — what [receive] (Crdt/Doc.v; [receive_Built] below) and [m_commit] both do.  It
   gives: no duplicate hashes, dependency-closed, topologically ordered. *)
From AM Require Import Base.Prelude Base.Order Crdt.Types Crdt.Interp Crdt.Doc Crdt.DocProofs
  Crdt.ErrProofs Crdt.QueueProofs Exec.HistExec Crdt.ClockProofs Crdt.Commit.
Local Open Scope N_scope.

(* dropping held changes keeps the hashes distinct *)
Lemma NoDup_hashes_app_filter f a q : NoDup (hashes (a ++ q)) -> NoDup (hashes (a ++ filter f q)).
Proof.
  induction a as [|x a IH]; cbn [app hashes map]; [apply NoDup_map_filter|].
  rewrite !NoDup_cons_iff. intros [Hx Hn]. split; [|exact (IH Hn)]. intros Hi.
  exact (Hx (incl_map ch_hash (incl_app_app (incl_refl a) (incl_filter f q)) _ Hi)).
Qed.

Lemma last_opt_snoc {A} (l : list A) x : last_opt (l ++ [x]) = Some x.
Proof. unfold last_opt. rewrite rev_app_distr. reflexivity. Qed.

Lemma last_opt_in {A} (l : list A) x : last_opt l = Some x -> In x l.
Proof.
  unfold last_opt. destruct (rev l) as [|y t] eqn:E; [discriminate|]. intros H; inversion H; subst.
  apply in_rev. rewrite E. left. reflexivity.
Qed.

Lemma last_opt_none {A} (l : list A) : last_opt l = None -> l = [].
Proof.
  unfold last_opt. destruct (rev l) as [|y t] eqn:E; [|discriminate]. intros _.
  rewrite <- (rev_involutive l), E. reflexivity.
Qed.

Inductive Built : list change -> Prop :=
| Built_nil : Built []
| Built_snoc a c : Built a -> ready a c = true -> ~ In (ch_hash c) (hashes a) -> Built (a ++ [c]).

Lemma Built_snoc_inv a c : Built (a ++ [c]) ->
  Built a /\ ready a c = true /\ ~ In (ch_hash c) (hashes a).
Proof.
  intros H. inversion H as [E|a' c' Ha Hr Hn E].
  - destruct a; discriminate.
  - apply app_inj_tail in E. destruct E; subst. auto.
Qed.

Lemma Built_iff a : Built a <-> NoDup (hashes a) /\ Topo a.
Proof.
  induction a as [|c a IH] using rev_ind.
  - split; [intros _; split; [constructor|intros i c Hi; destruct i; discriminate]|constructor].
  - rewrite NoDup_hashes_snoc, Topo_snoc_iff. split.
    + intros H. apply Built_snoc_inv in H. rewrite IH in H. tauto.
    + intros [[Hn Hd] [Ht Hr]]. constructor; [apply IH; auto|exact Hr|exact Hn].
Qed.

Lemma Built_NoDup a : Built a -> NoDup (hashes a).
Proof. intros H. apply Built_iff, H. Qed.

Lemma Built_Topo a : Built a -> Topo a.
Proof. intros H. apply Built_iff, H. Qed.

Lemma ready_incl a b c : incl a b -> ready a c = true -> ready b c = true.
Proof.
  intros Hi. rewrite !ready_spec. intros H h Hh. eapply has_hash_incl; [exact Hi|]. exact (H h Hh).
Qed.

Lemma Built_closed a : Built a -> dep_closed a.
Proof. intros H c Hc h Hh. apply has_hash_spec. exact (Topo_dep_in a c h (Built_Topo a H) Hc Hh). Qed.

Lemma Built_app a r : Built a -> (forall x, In x r -> ready a x = true) ->
  NoDup (hashes (a ++ r)) -> Built (a ++ r).
Proof.
  induction r as [|x t IH] using rev_ind; intros Ha Hr Hn; [rewrite app_nil_r; exact Ha|].
  rewrite app_assoc in Hn |- *. apply NoDup_hashes_snoc in Hn. destruct Hn as [Hx Hn].
  apply Built_snoc; [|apply (ready_incl a); [apply incl_appl, incl_refl|]|exact Hx].
  - apply IH; [exact Ha| |exact Hn]. intros y Hy. apply Hr, in_or_app. left. exact Hy.
  - apply Hr, in_or_app. right. left. reflexivity.
Qed.

(* a list used as a set: [x] is appended unless it is there *)
Lemma add_new_in x l h : In h (if memb N.eqb x l then l else l ++ [x]) <-> In h l \/ h = x.
Proof.
  destruct (memb N.eqb x l) eqn:E.
  - apply memb_N_In in E. split; [auto|intros [H| ->]; assumption].
  - rewrite in_app_iff. cbn [In]. split; [intros [H|[<-|[]]]; auto|intros [H| ->]; auto].
Qed.

Lemma add_new_NoDup x l : NoDup l -> NoDup (if memb N.eqb x l then l else l ++ [x]).
Proof.
  intros H. destruct (memb N.eqb x l) eqn:E; [exact H|].
  apply NoDup_snoc. split; [|exact H]. rewrite <- memb_N_In, E. discriminate.
Qed.

Lemma update_heads_in hs c h :
  In h (update_heads hs c) <-> (In h hs /\ ~ In h (ch_deps c)) \/ h = ch_hash c.
Proof.
  unfold update_heads. cbv zeta.
  rewrite add_new_in, filter_In, negb_true_iff, <- not_true_iff_false, memb_N_In. reflexivity.
Qed.

Lemma update_heads_NoDup hs c : NoDup hs -> NoDup (update_heads hs c).
Proof. intros H. apply add_new_NoDup, NoDup_filter, H. Qed.

Lemma heads_of_NoDup a : NoDup (hashes a) -> NoDup (heads_of a).
Proof. intros H. unfold heads_of. apply sortN_NoDup. apply NoDup_filter. exact H. Qed.

Lemma heads_of_in_hashes a h : In h (heads_of a) -> In h (hashes a).
Proof. intros H. apply heads_spec in H. apply in_hashes. exact (proj1 H). Qed.

Lemma heads_of_snoc a c h : dep_closed a -> ready a c = true -> ~ In (ch_hash c) (hashes a) ->
  (In h (heads_of (a ++ [c])) <-> (In h (heads_of a) /\ ~ In h (ch_deps c)) \/ h = ch_hash c).
Proof.
  intros Hcl Hr Hn.
  assert (K : forall l, In h (heads_of l) <-> In h (hashes l) /\ Forall (fun y => ~ In h (ch_deps y)) l).
  { intros l. rewrite heads_spec, in_hashes, Forall_forall. reflexivity. }
  rewrite !K, hashes_app, in_app_iff, Forall_app, Forall_cons_iff, Forall_nil_iff. cbn [hashes map In].
  split; [intros [[H|[H|[]]] H2]; [tauto|right; symmetry; exact H]|].
  (* nothing depends on the new change: its hash is not among the applied ones, the deps are *)
  intros [H| ->]; [tauto|]. split; [auto|]. split; [|split; [|exact I]].
  - apply Forall_forall. intros y Hy Hi. apply Hn, has_hash_in_hashes, (Hcl y Hy _ Hi).
  - intros Hi. apply Hn, has_hash_in_hashes, (proj1 (ready_spec a c) Hr _ Hi).
Qed.

Definition heads_agree (hs : list N) (a : list change) : Prop :=
  NoDup hs /\ forall h, In h hs <-> In h (heads_of a).

Lemma heads_agree_snoc hs a c : Built (a ++ [c]) -> heads_agree hs a ->
  heads_agree (update_heads hs c) (a ++ [c]).
Proof.
  intros Hb [Hn Hs]. apply Built_snoc_inv in Hb. destruct Hb as [Ha [Hr Hf]].
  split; [apply update_heads_NoDup; exact Hn|]. intros h.
  rewrite update_heads_in, (heads_of_snoc a c h (Built_closed a Ha) Hr Hf), Hs. tauto.
Qed.

Lemma heads_agree_fold r : forall hs a, Built (a ++ r) -> heads_agree hs a ->
  heads_agree (fold_left update_heads r hs) (a ++ r).
Proof.
  induction r as [|x t IH] using rev_ind; intros hs a Hb Hg.
  - cbn. rewrite app_nil_r. exact Hg.
  - rewrite fold_left_app. cbn [fold_left]. rewrite app_assoc in Hb |- *.
    apply heads_agree_snoc; [exact Hb|]. apply IH; [|exact Hg].
    apply Built_snoc_inv in Hb. exact (proj1 Hb).
Qed.

Lemma heads_agree_eq hs a : NoDup (hashes a) -> heads_agree hs a -> sortN hs = heads_of a.
Proof.
  intros Hn [Hd Hs]. unfold heads_of. rewrite <- (sortN_idem (filter _ _)).
  apply sortN_ext; [exact Hd|apply heads_of_NoDup; exact Hn|exact Hs].
Qed.

Lemma release_Built : forall fuel a q a' q', release fuel a q = (a', q') ->
  Built a -> NoDup (hashes (a ++ q)) -> Built a'.
Proof.
  apply (release_rect' (fun a q a' _ => Built a -> NoDup (hashes (a ++ q)) -> Built a')).
  - auto.
  - intros a q a' q' _ IH Ha Hn. apply IH.
    + apply Built_app; [exact Ha|intros x Hx; apply filter_In in Hx; exact (proj2 Hx)|].
      apply NoDup_hashes_app_filter, Hn.
    + eapply Permutation_NoDup; [|exact Hn]. apply Permutation_map. rewrite <- app_assoc.
      apply Permutation_app_head, filter_split_perm.
Qed.

Lemma receive_Built d cs d' : receive d cs = Ok d' ->
  Built (applied d) -> NoDup (hashes (applied d ++ queue d)) ->
  Built (applied d') /\ NoDup (hashes (applied d' ++ queue d')).
Proof.
  intros H Hb Hn. destruct (receive_inv _ _ _ H) as (r & Hbp & Hr).
  assert (Hn2 : NoDup (hashes ((applied d ++ queue d) ++ r))).
  { pattern r. apply (batch_push_ind d _ _ _ _ Hbp); cbv beta; [|rewrite app_nil_r; exact Hn].
    intros b c Hc _ _ E3 _ Hnb. rewrite app_assoc. apply NoDup_hashes_snoc. split; [|exact Hnb].
    apply filter_In, proj2, negb_true_iff in Hc. rewrite <- has_hash_in_hashes, !has_hash_app, Hc, E3. discriminate. }
  rewrite <- app_assoc in Hn2.
  split; [exact (release_Built _ _ _ _ _ Hr Hb Hn2)|].
  exact (Permutation_NoDup (Permutation_map ch_hash (release_perm _ _ _ _ _ Hr)) Hn2).
Qed.

Definition maxf {A} (g : A -> N) (l : list A) (m : N) : N := fold_left (fun m x => N.max m (g x)) l m.

Lemma maxf_le_iff {A} (g : A -> N) n l : forall m,
  n <= maxf g l m <-> n <= m \/ Exists (fun x => n <= g x) l.
Proof.
  induction l as [|y t IH]; intros m; cbn [maxf fold_left]; [rewrite Exists_nil; tauto|].
  fold (maxf g t (N.max m (g y))). rewrite IH, N.max_le_iff, Exists_cons. tauto.
Qed.

Lemma max_op_all_ge appl c : In c appl -> max_op c <= max_op_all appl.
Proof. intros H. apply (maxf_le_iff max_op). right. apply Exists_exists. exists c. split; [exact H|apply N.le_refl]. Qed.

Lemma actor_changes_in appl a c : In c (actor_changes appl a) <-> In c appl /\ ch_actor c = a.
Proof. unfold actor_changes. rewrite filter_In, same_actor_spec. tauto. Qed.

(* the sequence clock of an actor is the greatest seq among its changes below the heads *)
Lemma seq_clock_at_max appl hs a :
  seq_clock_at appl hs a = maxf ch_seq (actor_changes (ancestors appl hs) a) 0.
Proof.
  unfold seq_clock_at, actor_changes, maxf. generalize 0.
  induction (ancestors appl hs) as [|x t IH]; intros m; cbn [fold_left filter]; [reflexivity|].
  destruct (same_actor (ch_actor x) a); cbn [fold_left]; apply IH.
Qed.

Lemma seq_clock_at_le appl hs a n : 1 <= n ->
  (n <= seq_clock_at appl hs a <-> exists c, In c (ancestors appl hs) /\ ch_actor c = a /\ n <= ch_seq c).
Proof.
  intros Hn. rewrite seq_clock_at_max, maxf_le_iff, Exists_exists. setoid_rewrite actor_changes_in. split.
  - intros [H|(c & [Hc Ha] & H)]; [lia|exists c; auto].
  - intros (c & Hc & Ha & H). right. exists c. auto.
Qed.

Lemma isolate_actor_spec fuel appl hs a : forall i ai s,
  isolate_actor fuel appl hs a i = Ok (ai, s) ->
  exists j, (i <= j /\ forall k, i <= k < j ->
       seq_for_actor appl (level_actor a k) <> 0 /\
       seq_clock_at appl hs (level_actor a k) <> seq_for_actor appl (level_actor a k)) /\
    ai = level_actor a j /\ s = seq_for_actor appl ai + 1 /\
    (seq_for_actor appl ai = 0 \/ seq_clock_at appl hs ai = seq_for_actor appl ai).
Proof.
  induction fuel as [|f IH]; intros i ai s H; cbn [isolate_actor] in H; [discriminate|].
  destruct ((seq_for_actor appl (level_actor a i) =? 0)
            || (seq_clock_at appl hs (level_actor a i) =? seq_for_actor appl (level_actor a i))) eqn:E.
  - inversion H; subst. rewrite orb_true_iff, !N.eqb_eq in E.
    exists i. split; [split; [lia|intros k Hk; lia]|auto].
  - rewrite orb_false_iff, !N.eqb_neq in E.
    destruct (IH _ _ _ H) as (j & (Hj & Hk) & Hacc). exists j. split; [split; [lia|]|exact Hacc].
    intros k Hk2. destruct (N.eq_dec k i) as [->|Hne]; [exact E|apply Hk; lia].
Qed.

Lemma in_sortN_filter appl l h : In h (sortN (filter (has_hash appl) l)) <-> In h l /\ In h (hashes appl).
Proof. rewrite sortN_In, filter_In, has_hash_in_hashes. tauto. Qed.

(* the actor's previous change: the last applied change of that actor *)
Definition prev_change (appl : list change) (a : actor) : option change := last_opt (actor_changes appl a).

Lemma nth_error_last {A} (l : list A) : nth_error l (length l - 1) = last_opt l.
Proof.
  induction l as [|x l IH] using rev_ind; [reflexivity|].
  rewrite last_opt_snoc, app_length. cbn [length]. replace (length l + 1 - 1)%nat with (length l) by lia.
  rewrite nth_error_app2 by lia. rewrite Nat.sub_diag. reflexivity.
Qed.

(* the hash the non-isolated branch looks up is that of the previous change, and it looks one up
   exactly when there is a previous change *)
Lemma prev_change_lookup appl a :
  match prev_change appl a with
  | Some p => 1 <? seq_for_actor appl a + 1 = true /\
              hash_for_actor_seq appl a (seq_for_actor appl a + 1 - 1) = Ok (ch_hash p)
  | None => 1 <? seq_for_actor appl a + 1 = false
  end.
Proof.
  unfold prev_change, hash_for_actor_seq, seq_for_actor. fold (actor_changes appl a).
  destruct (actor_changes appl a) as [|p l _] using rev_ind; [reflexivity|].
  rewrite last_opt_snoc, last_length, N.add_sub. split; [apply N.ltb_lt; lia|].
  replace (N.to_nat _) with (length l) by lia. rewrite nth_error_app2, Nat.sub_diag by lia. reflexivity.
Qed.

Lemma prev_change_in appl a p : prev_change appl a = Some p -> In p appl /\ ch_actor p = a.
Proof. intros H. apply actor_changes_in, last_opt_in, H. Qed.

(* what a successful [commit_meta] returns, read off its definition *)
Lemma commit_meta_inv appl heads a iso m : commit_meta appl heads a iso = Ok m ->
  cm_start m = max_op_all appl + 1 /\
  exists deps, cm_deps m = sortN (filter (has_hash appl) deps) /\
    match iso with
    | Some hs => deps = hs /\ isolate_actor (S (length appl)) appl hs a 0 = Ok (cm_actor m, cm_seq m)
    | None => cm_actor m = a /\ cm_seq m = seq_for_actor appl a + 1 /\
        deps = match prev_change appl a with
               | Some p => if memb N.eqb (ch_hash p) heads then heads else heads ++ [ch_hash p]
               | None => heads
               end
    end.
Proof.
  unfold commit_meta. destruct iso as [hs|].
  - intros H. apply bind_ok in H. destruct H as ([ai s] & E & H). inversion H; subst; cbn.
    split; [reflexivity|]. exists hs. auto.
  - pose proof (prev_change_lookup appl a) as Hp. destruct (prev_change appl a) as [p|].
    + destruct Hp as [-> ->]. cbn [unwrap bind]. intros H; inversion H; subst; cbn.
      split; [reflexivity|]. eexists. auto.
    + rewrite Hp. cbn [bind]. intros H; inversion H; subst; cbn. split; [reflexivity|]. eexists. auto.
Qed.

Lemma commit_meta_deps_applied appl heads a iso m : commit_meta appl heads a iso = Ok m ->
  forall h, In h (cm_deps m) -> In h (hashes appl).
Proof.
  intros H h Hh. destruct (commit_meta_inv _ _ _ _ _ H) as (_ & deps & Hd & _).
  rewrite Hd in Hh. apply in_sortN_filter in Hh. exact (proj2 Hh).
Qed.

Theorem commit_seq_next appl heads a iso m : commit_meta appl heads a iso = Ok m ->
  cm_seq m = seq_for_actor appl (cm_actor m) + 1.
Proof.
  intros H. destruct (commit_meta_inv _ _ _ _ _ H) as (_ & deps & _ & Hi). destruct iso as [hs|].
  - destruct Hi as [_ E]. destruct (isolate_actor_spec _ _ _ _ _ _ _ E) as (j & _ & _ & Hs & _). exact Hs.
  - destruct Hi as (-> & Hs & _). exact Hs.
Qed.

(* isolated or not: the code takes the maximum over ALL applied changes, not over the isolation clock *)
Theorem commit_start_op_gt_all appl heads a iso m : commit_meta appl heads a iso = Ok m ->
  1 <= cm_start m /\
  forall c, In c appl -> max_op c < cm_start m /\
    forall i, (i < length (ch_ops c))%nat -> ch_start c + N.of_nat i < cm_start m.
Proof.
  intros H. rewrite (proj1 (commit_meta_inv _ _ _ _ _ H)). split; [lia|]. intros c Hc.
  pose proof (max_op_all_ge appl c Hc) as Hm. split; [lia|]. intros i Hi. unfold max_op in Hm. lia.
Qed.

(* not isolated: deps = the current heads plus the actor's previous change (when it has one and
   it is not a head already), sorted *)
Theorem commit_deps_nonisolated appl heads a m :
  commit_meta appl heads a None = Ok m -> incl heads (hashes appl) ->
  cm_actor m = a /\ sorted N.compare (cm_deps m) /\
  (NoDup heads -> NoDup (cm_deps m)) /\
  forall h, In h (cm_deps m) <->
    In h heads \/ exists p, prev_change appl a = Some p /\ h = ch_hash p.
Proof.
  intros H Hi. destruct (commit_meta_inv _ _ _ _ _ H) as (_ & deps & -> & Ha & _ & ->).
  split; [exact Ha|]. split; [apply sortN_sorted|].
  destruct (prev_change appl a) as [p|] eqn:Hp.
  - split; [intros Hn; apply sortN_NoDup, NoDup_filter, add_new_NoDup, Hn|].
    intros h. rewrite in_sortN_filter, add_new_in. split.
    + intros [[Hh| ->] _]; [left; exact Hh|right; exists p; auto].
    + intros [Hh|(p' & Ep & ->)]; [auto|]. inversion Ep; subst p'. split; [auto|].
      apply in_map, (prev_change_in appl a p Hp).
  - split; [intros Hn; apply sortN_NoDup, NoDup_filter, Hn|]. intros h. rewrite in_sortN_filter. split; [tauto|].
    intros [Hh|(p & Ep & _)]; [auto|discriminate].
Qed.

(* isolated at [hs]: deps are exactly [hs] (sorted; hashes the document does not know are
   dropped by [export]), the actor is the first concurrency level of the document's actor that
   has no change or whose latest change (seq = number of its applied changes) is among the
   ancestors of [hs] *)
Theorem commit_deps_isolated appl heads a hs m :
  commit_meta appl heads a (Some hs) = Ok m ->
  cm_deps m = sortN (filter (has_hash appl) hs) /\
  (incl hs (hashes appl) -> forall h, In h (cm_deps m) <-> In h hs) /\
  exists j, cm_actor m = level_actor a j /\
    (seq_for_actor appl (cm_actor m) = 0 \/
     seq_clock_at appl hs (cm_actor m) = seq_for_actor appl (cm_actor m)) /\
    forall k, k < j ->
      seq_for_actor appl (level_actor a k) <> 0 /\
      seq_clock_at appl hs (level_actor a k) <> seq_for_actor appl (level_actor a k).
Proof.
  intros H. destruct (commit_meta_inv _ _ _ _ _ H) as (_ & deps & Hd & -> & E).
  split; [exact Hd|]. split.
  - intros Hi h. rewrite Hd, in_sortN_filter. split; [tauto|]. auto.
  - destruct (isolate_actor_spec _ _ _ _ _ _ _ E) as (j & (_ & Hk) & Ha & _ & Hc).
    exists j. split; [exact Ha|]. split; [exact Hc|]. intros k Hk2. apply Hk. lia.
Qed.

Definition MInv (m : mdoc) : Prop :=
  Built (applied (m_doc m)) /\ NoDup (hashes (applied (m_doc m) ++ queue (m_doc m))) /\
  heads_agree (m_heads m) (applied (m_doc m)).

Lemma MInv_empty : MInv m_empty.
Proof.
  split; [constructor|]. split; [constructor|]. split; [constructor|]. intros h. cbn. tauto.
Qed.

Lemma MInv_heads m : MInv m -> m_get_heads m = heads_of (applied (m_doc m)).
Proof.
  intros [Hb [_ Hg]]. apply heads_agree_eq; [apply Built_NoDup; exact Hb|exact Hg].
Qed.

Lemma m_receive_cases m cs :
  (exists d' r, receive (m_doc m) cs = Ok d' /\ applied d' = applied (m_doc m) ++ r /\
     m_receive m cs = mkM d' (fold_left update_heads r (m_heads m))) \/
  (exists f, m_receive m cs = mkM (mkDoc (applied (m_doc m)) (filter f (queue (m_doc m)))) (m_heads m)).
Proof.
  unfold m_receive. destruct (receive_err_state_filter (m_doc m) cs) as [f ->].
  destruct (receive (m_doc m) cs) as [d'| |] eqn:E; [left|right; exists f; reflexivity..].
  destruct (receive_inv _ _ _ E) as (b & _ & Hr).
  destruct (release_extends _ _ _ _ _ Hr) as [r Er]. exists d', r.
  rewrite Er, skipn_app, skipn_all, Nat.sub_diag. auto.
Qed.

(* a local commit prunes the queue and, unless it is an empty transaction, appends one change *)
Lemma m_commit_inv m r m' oc : m_commit m r = Ok (m', oc) ->
  exists meta, commit_meta (applied (m_doc m)) (m_get_heads m) (cr_actor r) (cr_iso r) = Ok meta /\
    let q' := remove_actor_branch_from (queue (m_doc m)) (cm_actor meta) (cm_seq meta) in
    let c := mkChange (cr_hash r) (cm_actor meta) (cm_seq meta) (cm_start meta) (cm_deps meta) (cr_ops r) in
    (oc = None /\ m' = mkM (mkDoc (applied (m_doc m)) q') (m_heads m)) \/
    (oc = Some c /\ m' = mkM (mkDoc (applied (m_doc m) ++ [c]) q') (update_heads (m_heads m) c)).
Proof.
  unfold m_commit. intros H. apply bind_ok in H. destruct H as (meta & Em & H). exists meta. split; [exact Em|].
  destruct (cr_ops r) as [|o ops]; [destruct (cr_force r)|]; inversion H; subst; auto.
Qed.

(* what every step does: it appends to the applied changes (a delivery the released ones, a
   commit at most the change it creates), feeds exactly the appended changes to [update_heads],
   and at most drops or releases held changes *)
Lemma m_step_extends m s m' : MInv m -> step_fresh m s -> m_step m s = Ok m' ->
  exists r, applied (m_doc m') = applied (m_doc m) ++ r /\
    m_heads m' = fold_left update_heads r (m_heads m) /\
    Built (applied (m_doc m) ++ r) /\ NoDup (hashes (applied (m_doc m') ++ queue (m_doc m'))) /\
    match s with
    | SReceive _ => True
    | SCommit rq => r = [] \/
        exists meta, commit_meta (applied (m_doc m)) (m_get_heads m) (cr_actor rq) (cr_iso rq) = Ok meta /\
          r = [mkChange (cr_hash rq) (cm_actor meta) (cm_seq meta) (cm_start meta) (cm_deps meta) (cr_ops rq)]
    end.
Proof.
  intros [Hb [Hn Hg]] Hf H.
  destruct s as [cs|rq]; cbn [m_step] in H.
  - inversion H; subst m'. destruct (m_receive_cases m cs) as [(d' & r & E & Er & ->)|(f & ->)]; cbn [m_doc m_heads applied queue].
    + destruct (receive_Built _ _ _ E Hb Hn) as (Hb' & Hn'). exists r. rewrite <- Er. auto.
    + exists []. rewrite app_nil_r. repeat split; auto. apply NoDup_hashes_app_filter, Hn.
  - destruct (m_commit m rq) as [[m2 oc]| |] eqn:E; cbn [bind] in H; try discriminate. inversion H; subst m2.
    destruct (m_commit_inv _ _ _ _ E) as (meta & Em & [[_ ->]|[_ ->]]); unfold remove_actor_branch_from;
      cbn [m_doc m_heads applied queue].
    + exists []. rewrite app_nil_r. repeat split; auto. apply NoDup_hashes_app_filter, Hn.
    + set (c := mkChange _ _ _ _ _ _). exists [c]. split; [reflexivity|]. split; [reflexivity|].
      cbn [step_fresh] in Hf. split; [|split].
      * apply Built_snoc; [exact Hb| |].
        -- apply ready_spec. intros h Hh. apply has_hash_in_hashes.
           exact (commit_meta_deps_applied _ _ _ _ _ Em h Hh).
        -- intros Hc. apply Hf. rewrite hashes_app. apply in_or_app. left. exact Hc.
      * apply NoDup_hashes_app_filter. rewrite <- app_assoc.
        apply (Permutation_NoDup (Permutation_map ch_hash (Permutation_middle _ _ c))).
        constructor; [exact Hf|exact Hn].
      * right. exists meta. auto.
Qed.

Lemma MInv_step m s m' : MInv m -> step_fresh m s -> m_step m s = Ok m' -> MInv m'.
Proof.
  intros Hi Hf H. destruct (m_step_extends _ _ _ Hi Hf H) as (r & Ea & Eh & Hb & Hn & _).
  split; [rewrite Ea; exact Hb|]. split; [exact Hn|]. rewrite Ea, Eh. apply heads_agree_fold; [exact Hb|apply Hi].
Qed.

(* a property of the state and the steps still to come that every step hands on holds at the end *)
Lemma m_run_ind (P : mdoc -> list mstep -> Prop) :
  (forall m s t m', P m (s :: t) -> m_step m s = Ok m' -> P m' t) ->
  forall steps m m', P m steps -> m_run m steps = Ok m' -> P m' [].
Proof.
  intros Hstep. induction steps as [|s t IH]; intros m m' HP H; cbn [m_run] in H.
  - inversion H; subst. exact HP.
  - apply bind_ok in H. destruct H as (m2 & E & H). exact (IH m2 m' (Hstep m s t m2 HP E) H).
Qed.

Theorem MInv_run : forall steps m m', MInv m -> run_fresh m steps -> m_run m steps = Ok m' -> MInv m'.
Proof.
  intros steps m m' Hi Hf H.
  apply (m_run_ind (fun m steps => MInv m /\ run_fresh m steps)) in H; [exact (proj1 H)| |exact (conj Hi Hf)].
  intros m0 s t m1 [Hi0 [Hf1 Hf2]] E. rewrite E in Hf2. exact (conj (MInv_step _ _ _ Hi0 Hf1 E) Hf2).
Qed.

(* every change the machine creates, in one statement *)
Theorem created_change_meta : forall m r m' c,
  MInv m -> step_fresh m (SCommit r) -> m_commit m r = Ok (m', Some c) ->
  let appl := applied (m_doc m) in
  ch_hash c = cr_hash r /\ ch_ops c = cr_ops r /\
  ch_seq c = seq_for_actor appl (ch_actor c) + 1 /\
  (forall x, In x appl -> max_op x < ch_start c) /\
  (forall h, In h (ch_deps c) -> In h (hashes appl)) /\
  match cr_iso r with
  | None => ch_actor c = cr_actor r /\
            forall h, In h (ch_deps c) <->
              In h (heads_of appl) \/ exists p, prev_change appl (cr_actor r) = Some p /\ h = ch_hash p
  | Some hs => ch_deps c = sortN (filter (has_hash appl) hs)
  end /\
  applied (m_doc m') = appl ++ [c] /\
  m_get_heads m' = heads_of (appl ++ [c]).
Proof.
  intros m r m' c Hi Hf H appl.
  assert (Hi' : MInv m') by (apply (MInv_step m (SCommit r)); [exact Hi|exact Hf|cbn [m_step]; rewrite H; reflexivity]).
  destruct (m_commit_inv _ _ _ _ H) as (meta & Em & [[Hc _]|[Hc ->]]); [discriminate|].
  inversion Hc; subst c; clear Hc. rewrite (MInv_heads m Hi) in Em. fold appl in Em.
  cbn [ch_hash ch_ops ch_seq ch_actor ch_start ch_deps].
  split; [reflexivity|]. split; [reflexivity|]. split; [exact (commit_seq_next _ _ _ _ _ Em)|].
  split; [intros x Hx; exact (proj1 (proj2 (commit_start_op_gt_all _ _ _ _ _ Em) x Hx))|].
  split; [exact (commit_meta_deps_applied _ _ _ _ _ Em)|]. split.
  - destruct (cr_iso r) as [hs|].
    + exact (proj1 (commit_deps_isolated _ _ _ _ _ Em)).
    + destruct (commit_deps_nonisolated _ _ _ _ Em (heads_of_in_hashes appl)) as [H1 [_ [_ H4]]].
      split; [exact H1|exact H4].
  - split; [reflexivity|]. exact (MInv_heads _ Hi').
Qed.

Lemma Built_anc_iff a hs c : Built a -> (In c (ancestors a hs) <-> Anc a hs c).
Proof. intros Hb. apply ancestors_Anc_iff; [apply Built_NoDup|apply Built_Topo]; exact Hb. Qed.

Lemma Built_has_anc a hs c : Built a -> In c a ->
  (has_hash (ancestors a hs) (ch_hash c) = true <-> Anc a hs c).
Proof.
  intros Hb Hc. rewrite <- (Built_anc_iff a hs c Hb).
  apply (has_hash_mem a); [apply NoDup_hash_inj, Built_NoDup, Hb|apply ancestors_incl|exact Hc].
Qed.

Lemma Built_not_anc a hs c : Built a -> In c a ->
  (negb (has_hash (ancestors a hs) (ch_hash c)) = true <-> ~ Anc a hs c).
Proof.
  intros Hb Hc. rewrite negb_true_iff, <- not_true_iff_false, (Built_has_anc a hs c Hb Hc). reflexivity.
Qed.

Lemma Built_prefix l1 : forall l2, Built (l1 ++ l2) -> Built l1.
Proof.
  intros l2. induction l2 as [|x t IH] using rev_ind; intros H; [rewrite app_nil_r in H; exact H|].
  rewrite app_assoc in H. apply Built_snoc_inv in H. apply IH. exact (proj1 H).
Qed.

Lemma Built_mid l1 c l2 : Built (l1 ++ c :: l2) -> ready l1 c = true.
Proof.
  intros H. replace (l1 ++ c :: l2) with ((l1 ++ [c]) ++ l2) in H by (rewrite <- app_assoc; reflexivity).
  apply Built_prefix in H. apply Built_snoc_inv in H. exact (proj1 (proj2 H)).
Qed.

Lemma filter_split {A} (f : A -> bool) : forall l pre c post, filter f l = pre ++ c :: post ->
  exists l1 l2, l = l1 ++ c :: l2 /\ pre = filter f l1 /\ post = filter f l2.
Proof.
  induction l as [|x l IH]; intros pre c post H; cbn [filter] in H; [destruct pre; discriminate|].
  destruct (f x) eqn:E; [destruct pre as [|p pre]; inversion H; subst|].
  - exists [], l. auto.
  - destruct (IH _ _ _ H2) as (l1 & l2 & -> & -> & ->). exists (p :: l1), l2. cbn [filter]. rewrite E. auto.
  - destruct (IH _ _ _ H) as (l1 & l2 & -> & -> & ->). exists (x :: l1), l2. cbn [filter]. rewrite E. auto.
Qed.

(* C10, in three parts: which changes, none twice, and the order — a dependency that is not
   returned is an ancestor of [have], something the asker already has *)
Theorem get_changes_spec appl have : Built appl ->
  (forall c, In c (get_changes appl have) <-> In c appl /\ ~ Anc appl have c) /\
  NoDup (hashes (get_changes appl have)) /\
  (forall pre c post, get_changes appl have = pre ++ c :: post ->
     forall h, In h (ch_deps c) ->
       In h (hashes pre) \/ exists d, Anc appl have d /\ ch_hash d = h).
Proof.
  intros Hb. unfold get_changes. split; [|split].
  - intros c. rewrite filter_In. pose proof (Built_not_anc appl have c Hb). tauto.
  - apply (NoDup_map_filter ch_hash), Built_NoDup, Hb.
  - intros pre c post H h Hh. destruct (filter_split _ _ _ _ _ H) as (l1 & l2 & -> & -> & _).
    pose proof (proj1 (ready_spec l1 c) (Built_mid _ _ _ Hb) h Hh) as Hin.
    apply has_hash_spec in Hin. destruct Hin as (d & Hd & <-).
    assert (Hda : In d (l1 ++ c :: l2)) by (apply in_or_app; left; exact Hd).
    destruct (negb (has_hash (ancestors (l1 ++ c :: l2) have) (ch_hash d))) eqn:Ea.
    + left. apply in_map, filter_In. auto.
    + right. exists d. split; [|reflexivity]. apply (Built_has_anc _ have d Hb Hda).
      apply negb_false_iff, Ea.
Qed.

(* the result is a subsequence of the applied list: relative order = application order *)
Theorem get_changes_order appl have :
  exists keep, get_changes appl have = filter keep appl.
Proof. eexists. reflexivity. Qed.

(* what the code computes (a sequence clock) equals the specification when each actor's
   changes form a chain *)
Definition ActorChain (appl : list change) : Prop :=
  actor_seq_unique appl /\ (forall c, In c appl -> 1 <= ch_seq c) /\
  forall c1 c2, In c1 appl -> In c2 appl -> ch_actor c1 = ch_actor c2 -> ch_seq c1 < ch_seq c2 ->
    Anc appl [ch_hash c2] c1.

Lemma ActorChain_le appl c1 c2 : NoDup (hashes appl) -> ActorChain appl -> In c1 appl -> In c2 appl ->
  ch_actor c1 = ch_actor c2 -> ch_seq c1 <= ch_seq c2 -> Anc appl [ch_hash c2] c1.
Proof.
  intros Hn (Hu & _ & Hch) H1 H2 Ha Hs. destruct (N.eq_dec (ch_seq c1) (ch_seq c2)) as [E|E].
  - rewrite (NoDup_hash_inj appl Hn c1 c2 H1 H2 (Hu c1 c2 H1 H2 Ha E)).
    apply Anc_head; [exact H2|left; reflexivity].
  - apply Hch; [exact H1|exact H2|exact Ha|lia].
Qed.

(* the sequence clock of [have] covers exactly the ancestors of [have]: a change of the actor
   among them with a seq at least as great has every earlier change of the actor as an ancestor *)
Lemma seq_clock_covers appl have c : Built appl -> ActorChain appl -> In c appl ->
  (ch_seq c <= seq_clock_at appl have (ch_actor c) <-> In c (ancestors appl have)).
Proof.
  intros Hb Hch Hc. rewrite seq_clock_at_le by apply Hch, Hc. split.
  - intros (c' & Hc' & Ha & Hle). apply (Built_anc_iff appl have c Hb).
    eapply Anc_trans; [exact (Built_NoDup appl Hb)|apply (Built_anc_iff appl have c' Hb), Hc'|].
    apply ActorChain_le; [exact (Built_NoDup appl Hb)|exact Hch|exact Hc|exact (ancestors_incl _ _ _ Hc')|congruence|exact Hle].
  - intros H. exists c. split; [exact H|]. split; [reflexivity|apply N.le_refl].
Qed.

Theorem get_changes_impl_eq_spec appl have : Built appl -> ActorChain appl ->
  get_changes_impl appl have = get_changes appl have.
Proof.
  intros Hb Hch. apply filter_ext_in. intros c Hc. apply eq_true_iff_eq.
  rewrite N.ltb_lt, <- N.nle_gt, (seq_clock_covers appl have c Hb Hch Hc), (Built_not_anc appl have c Hb Hc),
    (Built_anc_iff appl have c Hb). reflexivity.
Qed.

Definition dummy_op : op := mkOp (1, [7]) root_id (KMap [97]) false (APut SNull) [].

(* [seq_index] positions are seq - 1 (asserted by ChangeGraph::add_changes) *)
Definition SeqIdx (appl : list change) (a : actor) : Prop :=
  forall i c, nth_error (actor_changes appl a) i = Some c -> ch_seq c = N.of_nat i + 1.

Definition AChain (appl : list change) : Prop := (forall a, SeqIdx appl a) /\ ActorChain appl.

(* what one more applied change must satisfy: the next seq of its actor (the code panics
   otherwise) and, when that actor has a previous change, it descends from it *)
Definition chain_ok_new (appl : list change) (c : change) : Prop :=
  ch_seq c = seq_for_actor appl (ch_actor c) + 1 /\
  forall p, prev_change appl (ch_actor c) = Some p -> Anc (appl ++ [c]) [ch_hash c] p.

Lemma actor_changes_snoc appl c a :
  actor_changes (appl ++ [c]) a = actor_changes appl a ++ (if same_actor (ch_actor c) a then [c] else []).
Proof. unfold actor_changes. rewrite filter_app. cbn [filter]. destruct (same_actor (ch_actor c) a); reflexivity. Qed.

Lemma seq_for_actor_len appl a : seq_for_actor appl a = N.of_nat (length (actor_changes appl a)).
Proof. reflexivity. Qed.

Lemma SeqIdx_nth appl a x : SeqIdx appl a -> In x appl -> ch_actor x = a ->
  nth_error (actor_changes appl a) (N.to_nat (ch_seq x) - 1) = Some x /\
  1 <= ch_seq x <= seq_for_actor appl a.
Proof.
  intros Hs Hx Ha. assert (Hin : In x (actor_changes appl a)) by (apply actor_changes_in; auto).
  destruct (In_nth_error _ _ Hin) as [k Hk]. pose proof (Hs _ _ Hk) as E.
  assert ((k < length (actor_changes appl a))%nat) by (apply nth_error_Some; congruence).
  rewrite seq_for_actor_len. replace (N.to_nat (ch_seq x) - 1)%nat with k by lia. split; [exact Hk|lia].
Qed.

Lemma SeqIdx_le appl a x : SeqIdx appl a -> In x appl -> ch_actor x = a ->
  1 <= ch_seq x <= seq_for_actor appl a.
Proof. intros Hs Hx Ha. apply (SeqIdx_nth appl a x Hs Hx Ha). Qed.

Lemma SeqIdx_unique appl : (forall a, SeqIdx appl a) ->
  actor_seq_unique appl /\ forall c, In c appl -> 1 <= ch_seq c.
Proof.
  intros Hs. split.
  - intros x y Hx Hy Ha Hq.
    destruct (SeqIdx_nth appl _ x (Hs _) Hx Ha) as [Ex _], (SeqIdx_nth appl _ y (Hs _) Hy eq_refl) as [Ey _].
    rewrite Hq in Ex. congruence.
  - intros x Hx. apply (SeqIdx_nth appl _ x (Hs _) Hx eq_refl).
Qed.

(* the actor's previous change is the one whose seq is the number of its changes *)
Lemma SeqIdx_prev appl a p : SeqIdx appl a ->
  (prev_change appl a = Some p <-> In p appl /\ ch_actor p = a /\ ch_seq p = seq_for_actor appl a).
Proof.
  intros Hs. unfold prev_change. rewrite <- nth_error_last, seq_for_actor_len. split.
  - intros Hp. pose proof (Hs _ _ Hp) as E.
    assert ((length (actor_changes appl a) - 1 < length (actor_changes appl a))%nat) by (apply nth_error_Some; congruence).
    apply nth_error_In, actor_changes_in in Hp. split; [apply Hp|]. split; [apply Hp|lia].
  - intros (Hx & Ha & Hq). destruct (SeqIdx_nth appl a p Hs Hx Ha) as [Hk _].
    rewrite Hq, Nat2N.id in Hk. exact Hk.
Qed.

Lemma SeqIdx_snoc appl c a : SeqIdx appl a -> ch_seq c = seq_for_actor appl (ch_actor c) + 1 ->
  SeqIdx (appl ++ [c]) a.
Proof.
  intros Hs Hseq i x Hx. rewrite actor_changes_snoc in Hx. destruct (same_actor (ch_actor c) a) eqn:Ea.
  - apply nth_error_snoc in Hx. destruct Hx as [Hx|[-> ->]]; [exact (Hs i x Hx)|].
    apply same_actor_spec in Ea. subst a. exact Hseq.
  - rewrite app_nil_r in Hx. exact (Hs i x Hx).
Qed.

Lemma AChain_nil : AChain [].
Proof.
  split; [intros a i c H; destruct i; discriminate|].
  split; [intros c c' []|]. split; [intros c []|intros c1 c2 []].
Qed.

(* the new change is the last of its actor; an earlier one is an ancestor of the actor's
   previous change, which the new one descends from *)
Lemma AChain_snoc appl c : Built (appl ++ [c]) -> AChain appl -> chain_ok_new appl c -> AChain (appl ++ [c]).
Proof.
  intros Hb [Hsi Hac] [Hseq Hprev].
  assert (Hsi' : forall a, SeqIdx (appl ++ [c]) a) by (intros a; apply SeqIdx_snoc; [apply Hsi|exact Hseq]).
  split; [exact Hsi'|]. split; [apply SeqIdx_unique, Hsi'|]. split; [apply SeqIdx_unique, Hsi'|].
  intros c1 c2 Hc1 Hc2 Ha Hs. apply in_app_or in Hc1. apply in_app_or in Hc2.
  destruct Hc1 as [Hc1|[<-|[]]].
  2:{ destruct Hc2 as [Hc2|[<-|[]]]; [pose proof (SeqIdx_le appl _ c2 (Hsi _) Hc2 (eq_sym Ha))|]; lia. }
  destruct Hc2 as [Hc2|[<-|[]]]; [apply Anc_mono; exact (proj2 (proj2 Hac) c1 c2 Hc1 Hc2 Ha Hs)|].
  pose proof (SeqIdx_le appl _ c1 (Hsi _) Hc1 Ha) as Hle.
  destruct (prev_change appl (ch_actor c)) as [p|] eqn:Hp.
  - destruct (proj1 (SeqIdx_prev appl _ p (Hsi _)) Hp) as (Hpin & Hpa & Hps).
    eapply Anc_trans; [exact (Built_NoDup _ Hb)|apply Hprev; reflexivity|]. apply Anc_mono.
    apply ActorChain_le; [exact (Built_NoDup _ (Built_prefix _ _ Hb))|exact Hac|exact Hc1|exact Hpin|congruence|lia].
  - apply last_opt_none in Hp. rewrite seq_for_actor_len, Hp in Hle. cbn [length] in Hle. lia.
Qed.

Lemma AChain_app : forall r a, Built (a ++ r) -> AChain a ->
  (forall pre c post, r = pre ++ c :: post -> chain_ok_new (a ++ pre) c) -> AChain (a ++ r).
Proof.
  induction r as [|x t IH] using rev_ind; intros a Hb Ha Hok; [rewrite app_nil_r; exact Ha|].
  rewrite app_assoc in Hb |- *. apply AChain_snoc; [exact Hb| |].
  - apply IH; [apply Built_snoc_inv in Hb; exact (proj1 Hb)|exact Ha|].
    intros pre c post E. apply (Hok pre c (post ++ [x])). rewrite E, <- app_assoc. reflexivity.
  - apply (Hok t x []). reflexivity.
Qed.

(* a change that depends on the known hashes among [hs] descends from every ancestor of [hs] *)
Lemma Anc_through_new appl c hs p :
  (forall h, In h hs -> In h (hashes appl) -> In h (ch_deps c)) ->
  Anc appl hs p -> Anc (appl ++ [c]) [ch_hash c] p.
Proof.
  intros Hd H. induction H as [x Hx Hh|x y Hx HA IH Hdep].
  - eapply Anc_dep; [apply in_or_app; left; exact Hx| |].
    + apply Anc_head; [apply in_or_app; right; left; reflexivity|left; reflexivity].
    + apply Hd; [exact Hh|apply in_hashes; exists x; auto].
  - eapply Anc_dep; [apply in_or_app; left; exact Hx|exact IH|exact Hdep].
Qed.

Theorem isolated_prev_is_ancestor appl heads a hs m p :
  commit_meta appl heads a (Some hs) = Ok m ->
  SeqIdx appl (cm_actor m) -> prev_change appl (cm_actor m) = Some p ->
  In p (ancestors appl hs).
Proof.
  intros H Hsi Hp.
  destruct (commit_deps_isolated _ _ _ _ _ H) as (_ & _ & j & _ & Hc & _).
  destruct (proj1 (SeqIdx_prev appl _ p Hsi) Hp) as (Hpin & Hpa & Hps).
  pose proof (SeqIdx_le appl _ p Hsi Hpin Hpa) as Hle.
  destruct Hc as [Hc|Hc]; [lia|].
  destruct (proj1 (seq_clock_at_le appl hs (cm_actor m) (ch_seq p) (proj1 Hle))) as (x & Hx & Hxa & Hxs); [lia|].
  pose proof (ancestors_incl _ _ _ Hx) as Hxin. pose proof (SeqIdx_le appl _ x Hsi Hxin Hxa).
  assert (prev_change appl (cm_actor m) = Some x) as E by (apply SeqIdx_prev; [exact Hsi|]; split; [exact Hxin|split; [exact Hxa|lia]]).
  rewrite Hp in E. injection E as <-. exact Hx.
Qed.

Lemma commit_chain_ok appl a iso m h ops :
  Built appl -> (forall a, SeqIdx appl a) ->
  commit_meta appl (heads_of appl) a iso = Ok m ->
  chain_ok_new appl (mkChange h (cm_actor m) (cm_seq m) (cm_start m) (cm_deps m) ops).
Proof.
  intros Hb Hsi H. split; cbn [ch_seq ch_actor ch_hash]; [exact (commit_seq_next _ _ _ _ _ H)|].
  intros p Hp. set (c := mkChange h (cm_actor m) (cm_seq m) (cm_start m) (cm_deps m) ops).
  destruct iso as [hs|].
  - apply (Anc_through_new appl c hs p).
    + intros x Hx Hx2. cbn [c ch_deps]. rewrite (proj1 (commit_deps_isolated _ _ _ _ _ H)).
      apply in_sortN_filter. auto.
    + apply (Built_anc_iff appl hs p Hb). exact (isolated_prev_is_ancestor _ _ _ _ _ _ H (Hsi _) Hp).
  - destruct (commit_deps_nonisolated _ _ _ _ H (heads_of_in_hashes appl)) as (Ea & _ & _ & Hd).
    apply (Anc_through_new appl c [ch_hash p] p).
    + intros x [<-|[]] _. cbn [c ch_deps]. apply Hd. right. exists p. rewrite <- Ea. auto.
    + apply Anc_head; [apply (prev_change_in _ _ _ Hp)|left; reflexivity].
Qed.

(* delivered changes must continue their actor's chain: the first half is what the code
   asserts (change_graph.rs, add_changes), the second is true of every change a library
   document creates ([commit_chain_ok]); a hand-built history can violate it *)
Definition step_chain_ok (m : mdoc) (s : mstep) : Prop :=
  match s with
  | SCommit _ => True
  | SReceive cs => forall pre c post,
      applied (m_doc (m_receive m cs)) = applied (m_doc m) ++ pre ++ c :: post ->
      chain_ok_new (applied (m_doc m) ++ pre) c
  end.

Fixpoint run_chain_ok (m : mdoc) (steps : list mstep) : Prop :=
  match steps with
  | [] => True
  | s :: t => step_chain_ok m s /\ match m_step m s with Ok m' => run_chain_ok m' t | _ => True end
  end.

Lemma run_chain_ok_cons m s t m' :
  m_step m s = Ok m' -> step_chain_ok m s -> run_chain_ok m' t -> run_chain_ok m (s :: t).
Proof. intros E H1 H2. cbn [run_chain_ok]. rewrite E. split; assumption. Qed.

Lemma AChain_step m s m' : MInv m -> step_fresh m s -> step_chain_ok m s -> AChain (applied (m_doc m)) ->
  m_step m s = Ok m' -> AChain (applied (m_doc m')).
Proof.
  intros Hi Hf Hok Ha H. destruct (m_step_extends _ _ _ Hi Hf H) as (r & Ea & _ & Hb & _ & Hs). rewrite Ea.
  destruct s as [cs|rq].
  - apply AChain_app; [exact Hb|exact Ha|]. intros pre c post E.
    apply (Hok pre c post). inversion H; subst m'. rewrite Ea, E. reflexivity.
  - destruct Hs as [->|(meta & Em & ->)]; [rewrite app_nil_r; exact Ha|]. rewrite (MInv_heads m Hi) in Em.
    apply AChain_snoc; [exact Hb|exact Ha|]. exact (commit_chain_ok _ _ _ _ _ _ (proj1 Hi) (proj1 Ha) Em).
Qed.

(* each actor's applied changes form a chain in every state reached from the empty document by
   local commits (plain, empty, isolated) and deliveries of changes that continue their chain *)
Theorem chain_invariant : forall steps m m',
  MInv m -> AChain (applied (m_doc m)) -> run_fresh m steps -> run_chain_ok m steps ->
  m_run m steps = Ok m' -> AChain (applied (m_doc m')).
Proof.
  intros steps m m' Hi Ha Hf Hok H.
  apply (m_run_ind (fun m steps => (MInv m /\ AChain (applied (m_doc m))) /\ run_fresh m steps /\ run_chain_ok m steps)) in H;
    [exact (proj2 (proj1 H))| |exact (conj (conj Hi Ha) (conj Hf Hok))].
  intros m0 s t m1 [[Hi0 Ha0] [[Hf1 Hf2] [Hk1 Hk2]]] E. rewrite E in Hf2, Hk2.
  exact (conj (conj (MInv_step _ _ _ Hi0 Hf1 E) (AChain_step _ _ _ Hi0 Hf1 Hk1 Ha0 E)) (conj Hf2 Hk2)).
Qed.
