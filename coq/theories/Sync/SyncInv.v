(* Sync/SyncInv.v — two peers, a reliable in-order link in each direction, any interleaving of
   generate / receive / local edits: an invariant of all reachable states, and from it
   quiescence soundness (C20): when both peers return None from generate_sync_message and nothing
   is in flight, they hold the same changes and the same heads.

   The system state carries two history variables (gA, gB: the applied changes of a peer at the
   moment it last put a message on the wire); they do not influence any step.
   Scope: both sync states read-write and never switched, and no step takes the reset path of
   generate_sync_message (the peer's last_sync names a change we lack), which a two-peer session
   from fresh states never does on the implementation (counted by the harness). *)
From AM Require Import Base.Prelude Base.ListFacts Base.Order Gen.Consts Crdt.Types Crdt.Doc Crdt.DocProofs Crdt.QueueProofs
  Sync.Proto Sync.ProtoProofs.
Local Open Scope N_scope.

(* heads determine the set of changes (closed sets inside one acyclic, hash-addressed universe) *)

Section Heads.
  Variable U : list change.
  Variable rk : change -> nat.
  Hypothesis Uinj : hash_inj U.
  Hypothesis Uacyc : forall c c', In c U -> In c' U -> In (ch_hash c) (ch_deps c') -> (rk c < rk c')%nat.

  Lemma head_or_dependent A c :
    In c A -> In (ch_hash c) (heads_of A) \/ exists c', In c' A /\ In (ch_hash c) (ch_deps c').
  Proof.
    intros Hc. destruct (existsb (fun c' => memb N.eqb (ch_hash c) (ch_deps c')) A) eqn:Ex.
    - right. apply existsb_exists in Ex. destruct Ex as (c' & Hc' & Hd). exists c'. split; [exact Hc'|apply memb_N_In, Hd].
    - left. apply sortN_In, filter_In. split; [apply (in_map ch_hash), Hc|rewrite Ex; reflexivity].
  Qed.

  (* by induction on the distance of rk c from the largest rank in A: a change of A is a head of A, hence
     of A', or some c' of A of larger rank depends on it, and A' is closed *)
  Lemma heads_determine_incl A A' :
    incl A U -> incl A' U -> dep_closed A' ->
    (forall h, In h (heads_of A) -> In h (heads_of A')) -> incl A A'.
  Proof.
    intros HA HA' Hcl Hh.
    set (M := list_max (map rk A)).
    assert (HM : forall c, In c A -> (rk c <= M)%nat).
    { intros c Hc. apply (proj1 (Forall_forall _ _) (proj1 (list_max_le _ _) (Nat.le_refl M))), in_map, Hc. }
    assert (G : forall n c, In c A -> (M - rk c < n)%nat -> In c A').
    { induction n as [|n IH]; intros c Hc Hn; [lia|].
      apply (has_hash_mem U A' c Uinj HA' (HA _ Hc)).
      destruct (head_or_dependent A c Hc) as [Hhd|(c' & Hc' & Hd)].
      - apply Hh, heads_spec in Hhd. apply has_hash_spec. exact (proj1 Hhd).
      - apply (Hcl c'); [|exact Hd]. apply IH; [exact Hc'|].
        assert (R := Uacyc c c' (HA _ Hc) (HA _ Hc') Hd). specialize (HM c' Hc'). lia. }
    intros c Hc. exact (G _ c Hc (Nat.lt_succ_diag_r _)).
  Qed.

  Lemma heads_of_same_set A A' : (forall c, In c A <-> In c A') ->
    forall h, In h (heads_of A) <-> In h (heads_of A').
  Proof.
    intros E h. rewrite !heads_spec. setoid_rewrite E. reflexivity.
  Qed.
End Heads.

Section Steps.
  Variable B : Type.
  Variable b_make : list N -> B.
  Variable b_query : B -> N -> bool.
  Notation state := (sync_state B).
  Notation msg := (message B).
  Notation gen := (@generate_sync_message B b_make b_query).
  Notation rcv := (@receive_sync_message B).
  Notation bld := (@build B b_query).

  (* generate, outside the reset path, on a state that is not about to reset *)
  Lemma gen_cases (d : doc) (s s' : state) om :
    reset_cond d s = false -> needs_reset s = false -> gen d s = (s', om) ->
    (om = None /\ s' = s) \/
    (exists m, om = Some m /\ m_heads m = heads_of (applied d) /\
       last_sent_heads s' = heads_of (applied d) /\
       their_heads s' = their_heads s /\ read_only s' = read_only s /\ needs_reset s' = false /\
       incl (msg_changes m) (applied d ++ queue d)).
  Proof.
    intros Hr Hn H. destruct (build_total B b_query d s) as [b Eb].
    rewrite (gen_eq B b_make b_query d s b Eb), Hr, Hn in H.
    destruct (quiet s (heads_of (applied d)) b); inversion H; subst.
    - left. auto.
    - right. eexists. split; [reflexivity|]. repeat (split; [reflexivity|]). exact (built_changes_held B b_query d s b Eb).
  Qed.

  Lemma rcv_facts (d : doc) (s : state) (m : msg) d' s' :
    rcv d s m = Ok (d', s') ->
    in_flight s' = false /\ their_heads s' = Some (m_heads m) /\ read_only s' = read_only s /\
    needs_reset s' = needs_reset s /\ have_responded s' = have_responded s.
  Proof.
    intros H. destruct (rcv_inv B d s m d' s' H) as (_ & sh & ls & caps & ->). cbn. auto.
  Qed.

  Lemma quiet_facts (s : state) hs b : quiet s hs b = true -> read_only s = false ->
    last_sent_heads s = hs /\ have_responded s = true /\ (their_heads s = Some hs \/ in_flight s = true).
  Proof.
    unfold quiet. intros H Hro. rewrite Hro, orb_false_r in H.
    apply andb_true_iff in H. destruct H as [H H3]. apply andb_true_iff in H. destruct H as [H1 H2].
    apply (list_eqb_spec N.eqb N.eqb_eq) in H1. split; [exact H1|]. split; [exact H2|].
    apply orb_true_iff in H3. destruct H3 as [H3|H3]; [left|right; exact H3].
    apply andb_true_iff in H3. destruct H3 as [H3 _]. unfold heads_equal in H3.
    destruct (their_heads s) as [h|]; [|discriminate]. apply (list_eqb_spec N.eqb N.eqb_eq) in H3. subst. reflexivity.
  Qed.

  Variable U : list change.
  Variable rk : change -> nat.
  Hypothesis Uinj : hash_inj U.
  Hypothesis Uacyc : forall c c', In c U -> In c' U -> In (ch_hash c) (ch_deps c') -> (rk c < rk c')%nat.

  Record sys := mkSys {
    dA : doc; dB : doc; sA : state; sB : state;
    cAB : list msg; cBA : list msg;                 (* in flight, oldest first *)
    gA : option (list change); gB : option (list change) }.   (* history: applied changes at the last send *)

  Definition swap (w : sys) : sys := mkSys (dB w) (dA w) (sB w) (sA w) (cBA w) (cAB w) (gB w) (gA w).

  Definition good_doc (d : doc) : Prop := dep_closed (applied d) /\ incl (applied d ++ queue d) U.

  Definition opt_msg (om : option msg) : list msg := match om with Some m => [m] | None => [] end.

  (* steps of peer A; peer B's are the mirror images *)
  Inductive stepA : sys -> sys -> Prop :=
  | GenA w s' om : reset_cond (dA w) (sA w) = false -> gen (dA w) (sA w) = (s', om) ->
      stepA w (mkSys (dA w) (dB w) s' (sB w) (cAB w ++ opt_msg om) (cBA w)
                     (match om with Some _ => Some (applied (dA w)) | None => gA w end) (gB w))
  | RecvA w m rest d' s' : cBA w = m :: rest -> rcv (dA w) (sA w) m = Ok (d', s') ->
      stepA w (mkSys d' (dB w) s' (sB w) (cAB w) rest (gA w) (gB w))
  | EditA w d' : incl (applied (dA w)) (applied d') -> good_doc d' ->
      stepA w (mkSys d' (dB w) (sA w) (sB w) (cAB w) (cBA w) (gA w) (gB w)).

  Inductive step : sys -> sys -> Prop :=
  | StepA w w' : stepA w w' -> step w w'
  | StepB w w' : stepA (swap w) (swap w') -> step w w'.

  Definition initial (w : sys) : Prop :=
    good_doc (dA w) /\ good_doc (dB w) /\ sA w = fresh_state /\ sB w = fresh_state /\
    cAB w = [] /\ cBA w = [] /\ gA w = None /\ gB w = None.

  Inductive reachable : sys -> Prop :=
  | R0 w : initial w -> reachable w
  | RS w w' : reachable w -> step w w' -> reachable w'.

  (* what the receiver believes (or will believe once the channel has drained) about the sender's heads *)
  Definition view (c : list msg) (sY : state) : option (list N) :=
    match rev c with m :: _ => Some (m_heads m) | [] => their_heads sY end.

  Lemma view_snoc c m sY : view (c ++ [m]) sY = Some (m_heads m).
  Proof. unfold view. rewrite rev_app_distr. reflexivity. Qed.

  Lemma view_pop m rest sY sY' : their_heads sY' = Some (m_heads m) -> view rest sY' = view (m :: rest) sY.
  Proof.
    intros H. unfold view. cbn [rev]. destruct (rev rest) as [|x l]; cbn; [exact H|reflexivity].
  Qed.

  Lemma view_state c sY sY' : their_heads sY' = their_heads sY -> view c sY' = view c sY.
  Proof. intros H. unfold view. destruct (rev c); [exact H|reflexivity]. Qed.

  (* the invariant, for the direction X -> Y.  [quiescent_incl] reads [di_flight], [di_view] and [di_hist]: what
     Y believes of X's heads is the heads of the snapshot [gX] taken at X's last send, not of X's
     present document, which local edits may have moved on. *)
  Record dir_inv (dX : doc) (sX sY : state) (cXY : list msg) (gX : option (list change)) : Prop := mkDI {
    di_rw : read_only sX = false /\ needs_reset sX = false;
    di_flight : in_flight sX = true -> view cXY sY = Some (last_sent_heads sX);
    di_view : view cXY sY = option_map heads_of gX;
    di_resp : have_responded sX = true -> gX <> None;
    di_hist : forall g, gX = Some g -> incl g (applied dX) /\ dep_closed g;
    di_doc : good_doc dX;
    di_chan : forall m, In m cXY -> incl (msg_changes m) U }.

  Definition Inv (w : sys) : Prop :=
    dir_inv (dA w) (sA w) (sB w) (cAB w) (gA w) /\
    dir_inv (dB w) (sB w) (sA w) (cBA w) (gB w) /\
    (* both peers waiting for an answer: a message is under way *)
    (in_flight (sA w) = true -> in_flight (sB w) = true -> cAB w <> [] \/ cBA w <> []).

  Lemma Inv_swap w : Inv w -> Inv (swap w).
  Proof. intros (I1 & I2 & I3). split; [exact I2|]. split; [exact I1|]. cbn. intros a b. destruct (I3 b a); auto. Qed.

  Lemma Inv_initial w : initial w -> Inv w.
  Proof.
    intros (GA & GB & EA & EB & CA & CB & HA & HB).
    split; [|split].
    - rewrite EA, EB, CA, HA. constructor; cbn; try discriminate; auto. intros m [].
    - rewrite EA, EB, CB, HB. constructor; cbn; try discriminate; auto. intros m [].
    - rewrite EA. cbn. discriminate.
  Qed.

  (* the listening side enters only through its view of the channel *)
  Lemma dir_inv_listener dX sX sY sY' c c' gX :
    view c' sY' = view c sY -> incl c' c -> dir_inv dX sX sY c gX -> dir_inv dX sX sY' c' gX.
  Proof.
    intros V I [R F W S H D C]. constructor; try assumption.
    - rewrite V. exact F.
    - rewrite V. exact W.
    - intros m Hm. exact (C m (I m Hm)).
  Qed.

  Lemma Inv_stepA w w' : Inv w -> stepA w w' -> Inv w'.
  Proof.
    intros (I1 & I2 & I3) St. destruct I1 as [[Hro Hnr] Hfl Hvw Hrs Hhs Hdoc Hch].
    destruct St as [w s' om Hr Hg|w m rest d' s' Ec Hr|w d' Hi Hd].
    - (* generate at A *)
      destruct (gen_cases _ _ _ _ Hr Hnr Hg) as [(-> & ->)|(m & -> & Hmh & Hls & Hth & Hror & Hnr' & Hinc)]; cbn [opt_msg].
      + rewrite app_nil_r. split; [constructor; auto|split; [exact I2|exact I3]].
      + split; [|split]; cbn [dA dB sA sB cAB cBA gA gB].
        * constructor.
          -- rewrite Hror. auto.
          -- intros _. rewrite view_snoc, Hmh, Hls. reflexivity.
          -- rewrite view_snoc, Hmh. reflexivity.
          -- discriminate.
          -- intros g Hg'. inversion Hg'; subst. split; [apply incl_refl|exact (proj1 Hdoc)].
          -- exact Hdoc.
          -- intros x Hx. apply in_app_or in Hx. destruct Hx as [Hx|[<-|[]]]; [exact (Hch _ Hx)|].
             intros c Hc. apply (proj2 Hdoc). exact (Hinc _ Hc).
        * exact (dir_inv_listener _ _ _ _ _ _ _ (view_state _ _ _ Hth) (incl_refl _) I2).
        * intros _ _. left. destruct (cAB w); discriminate.
    - (* receive at A *)
      destruct (rcv_facts _ _ _ _ _ Hr) as (Rif & Rth & Rro & Rnr & Rhr).
      destruct (sync_receive_monotone B _ _ _ _ _ Hr) as (Rmono & Rcl).
      destruct (sync_only_adds_peer_changes B _ _ _ _ _ Hr) as (_ & Radd).
      rewrite Ec in I2.
      split; [|split]; cbn [dA dB sA sB cAB cBA gA gB].
      + constructor.
        * rewrite Rro, Rnr. auto.
        * rewrite Rif. discriminate.
        * exact Hvw.
        * rewrite Rhr. exact Hrs.
        * intros g Hg. destruct (Hhs g Hg) as [Hi Hc]. exact (conj (incl_tran Hi Rmono) Hc).
        * split; [exact (Rcl (proj1 Hdoc))|]. intros c Hc. destruct (Radd c Hc) as [K|K]; [exact (proj2 Hdoc c K)|].
          exact (di_chan _ _ _ _ _ I2 m (or_introl eq_refl) c K).
        * exact Hch.
      + exact (dir_inv_listener _ _ _ _ _ _ _ (view_pop m rest (sA w) s' Rth) (incl_tl m (incl_refl rest)) I2).
      + rewrite Rif. discriminate.
    - (* local edit at A *)
      split; [|split; [exact I2|exact I3]]. constructor; auto.
      intros g Hg. destruct (Hhs g Hg) as [Hi' Hc]. exact (conj (incl_tran Hi' Hi) Hc).
  Qed.

  Lemma swap_swap w : swap (swap w) = w.
  Proof. destruct w; reflexivity. Qed.

  Theorem Inv_reachable w : reachable w -> Inv w.
  Proof.
    induction 1 as [w H|w w' _ IH St]; [exact (Inv_initial w H)|].
    destruct St as [w w' St|w w' St]; [exact (Inv_stepA _ _ IH St)|].
    rewrite <- (swap_swap w'). apply Inv_swap. exact (Inv_stepA _ _ (Inv_swap _ IH) St).
  Qed.

  Definition same_changes (a b : list change) : Prop := forall c, In c a <-> In c b.

  Lemma gen_none (d : doc) (s s' : state) :
    gen d s = (s', None) -> read_only s = false ->
    last_sent_heads s = heads_of (applied d) /\ have_responded s = true /\
    (their_heads s = Some (heads_of (applied d)) \/ in_flight s = true).
  Proof.
    intros H Hro. destruct (build_total B b_query d s) as [b Eb].
    rewrite (gen_eq B b_make b_query d s b Eb) in H. destruct (reset_cond d s); [discriminate|].
    destruct (quiet s (heads_of (applied d)) b) eqn:Q; [|discriminate]. exact (quiet_facts _ _ _ Q Hro).
  Qed.

  (* a has the heads of a closed part g of b *)
  Lemma heads_cover (a g b : list change) :
    incl a U -> incl b U -> incl g b -> dep_closed g -> heads_of a = heads_of g -> incl a b.
  Proof.
    intros Ha Hb I C E c Hc. apply I. revert c Hc. apply (heads_determine_incl U rk Uinj Uacyc); auto.
    - intros c Hc. apply Hb, I, Hc.
    - intros h. rewrite E. auto.
  Qed.

  Lemma good_applied d : good_doc d -> incl (applied d) U.
  Proof. intros [_ G]. exact (proj1 (incl_app_inv _ _ G)). Qed.

  (* one inclusion; the other is its mirror image *)
  Lemma quiescent_incl w sa sb :
    Inv w -> cAB w = [] -> cBA w = [] ->
    gen (dA w) (sA w) = (sa, None) -> gen (dB w) (sB w) = (sb, None) ->
    incl (applied (dA w)) (applied (dB w)).
  Proof.
    intros (I1 & I2 & I3) CA CB GA GB.
    destruct I1 as [[Hro _] Hfl _ _ _ Hdoc _]. destruct I2 as [[Hro2 _] _ Hvw2 _ Hhs2 Hdoc2 _].
    destruct (gen_none _ _ _ GA Hro) as (LA & _ & QA). destruct (gen_none _ _ _ GB Hro2) as (_ & _ & QB).
    rewrite CA in Hfl. rewrite CB in Hvw2. unfold view in Hfl, Hvw2. cbn [rev] in Hfl, Hvw2.
    destruct QA as [QA|QA].
    - (* A believes B has A's heads: those of the closed part of B's changes that B announced last *)
      rewrite QA in Hvw2. destruct (gB w) as [gb|]; [|discriminate]. injection Hvw2 as E.
      destruct (Hhs2 gb eq_refl) as [IB Cl].
      exact (heads_cover _ gb _ (good_applied _ Hdoc) (good_applied _ Hdoc2) IB Cl E).
    - (* A waits: B has received A's last message, which announced A's present heads *)
      specialize (Hfl QA). rewrite LA in Hfl. destruct QB as [QB|QB].
      + rewrite Hfl in QB. injection QB as E.
        exact (heads_cover _ _ _ (good_applied _ Hdoc) (good_applied _ Hdoc2) (incl_refl _) (proj1 Hdoc2) E).
      + destruct (I3 QA QB) as [X|X]; contradiction.
  Qed.

  Theorem quiescent_implies_equal_heads w sa sb :
    reachable w -> cAB w = [] -> cBA w = [] ->
    gen (dA w) (sA w) = (sa, None) -> gen (dB w) (sB w) = (sb, None) ->
    same_changes (applied (dA w)) (applied (dB w)) /\
    forall h, In h (heads_of (applied (dA w))) <-> In h (heads_of (applied (dB w))).
  Proof.
    intros R CA CB GA GB. pose proof (Inv_reachable _ R) as I.
    enough (S : same_changes (applied (dA w)) (applied (dB w))) by (split; [exact S|apply heads_of_same_set, S]).
    intros c. split.
    - exact (quiescent_incl w sa sb I CA CB GA GB c).
    - exact (quiescent_incl (swap w) sb sa (Inv_swap _ I) CB CA GB GA c).
  Qed.

  (* an executable driver, to exhibit reachable quiescent states (non-vacuity) *)

  Inductive cmd := CGen | CRecv.

  Definition execA (w : sys) (c : cmd) : option sys :=
    match c with
    | CGen =>
      if reset_cond (dA w) (sA w) then None
      else let (s', om) := gen (dA w) (sA w) in
           Some (mkSys (dA w) (dB w) s' (sB w) (cAB w ++ opt_msg om) (cBA w)
                       (match om with Some _ => Some (applied (dA w)) | None => gA w end) (gB w))
    | CRecv =>
      match cBA w with
      | m :: rest =>
        match rcv (dA w) (sA w) m with
        | Ok (d', s') => Some (mkSys d' (dB w) s' (sB w) (cAB w) rest (gA w) (gB w))
        | _ => None
        end
      | [] => None
      end
    end.

  Definition exec1 (w : sys) (c : bool * cmd) : option sys :=
    if fst c then execA w (snd c) else option_map swap (execA (swap w) (snd c)).

  Fixpoint exec (w : sys) (cs : list (bool * cmd)) : option sys :=
    match cs with
    | [] => Some w
    | c :: t => match exec1 w c with Some w' => exec w' t | None => None end
    end.

  Lemma execA_sound w c w' : execA w c = Some w' -> stepA w w'.
  Proof.
    destruct c; cbn [execA]; intros H.
    - destruct (reset_cond (dA w) (sA w)) eqn:Er; [discriminate|].
      destruct (gen (dA w) (sA w)) as [s' om] eqn:Eg. inversion H; subst. apply GenA; assumption.
    - destruct (cBA w) as [|m rest] eqn:Ec; [discriminate|].
      destruct (rcv (dA w) (sA w) m) as [[d' s']| |] eqn:Er; try discriminate.
      inversion H; subst. eapply RecvA; eassumption.
  Qed.

  Lemma exec_sound : forall cs w w', reachable w -> exec w cs = Some w' -> reachable w'.
  Proof.
    induction cs as [|c t IH]; intros w w' R H; cbn [exec] in H; [inversion H; subst; exact R|].
    destruct (exec1 w c) as [w1|] eqn:E1; [|discriminate]. apply (IH w1 w'); [|exact H].
    apply (RS w w1 R). unfold exec1 in E1. destruct (fst c).
    - apply StepA. exact (execA_sound _ _ _ E1).
    - destruct (execA (swap w) (snd c)) as [x|] eqn:Ex; [|discriminate]. inversion E1; subst.
      apply StepB. rewrite swap_swap. exact (execA_sound _ _ _ Ex).
  Qed.
End Steps.
