(* Sync/ProtoProofs.v — facts about single steps of the sync protocol model (Sync/Proto.v).
   Each of receive, build and generate is taken apart once (rcv_inv, build_cases, gen_eq); from these:
   read-only never applies (C22), what a read-only peer still sends, what switching back to
   read-write does, safety of receive (C20), the answer to an unknown last_sync (C21). *)
From AM Require Import Base.Prelude Base.ListFacts Base.Order Gen.Consts Crdt.Types Crdt.Doc Crdt.DocProofs Crdt.QueueProofs Sync.Proto.
Local Open Scope N_scope.

Lemma set_of_In x l : In x (set_of l) <-> In x l.
Proof. unfold set_of. rewrite sortN_In, dedupN_In. tauto. Qed.

Lemma get_changes_nil appl : get_changes appl [] = appl.
Proof.
  unfold get_changes, ancestors.
  assert (E : forall l, anc_rev l [] = []).
  { induction l as [|c t IH]; cbn; [reflexivity|exact IH]. }
  rewrite E. apply filter_all_true. reflexivity.
Qed.

Lemma get_changes_sub appl hs : incl (get_changes appl hs) appl.
Proof. apply incl_filter. Qed.

Section P.
  Variable B : Type.
  Variable b_make : list N -> B.
  Variable b_query : B -> N -> bool.

  Notation state := (sync_state B).
  Notation msg := (message B).
  Notation gen := (@generate_sync_message B b_make b_query).
  Notation rcv := (@receive_sync_message B).
  Notation bld := (@build B b_query).

  (* receive, inverted: the document is untouched, or (never on a read-only state) has received the
     changes the message carries; the new state is explicit but for the three fields (shared heads,
     last sent heads, capabilities) that no theorem below reads *)
  Lemma rcv_inv (d : doc) (s : state) (m : msg) d' s' :
    rcv d s m = Ok (d', s') ->
    (d' = d \/ exists cs, m_changes m = Some cs /\ read_only s = false /\ Doc.receive d cs = Ok d') /\
    exists shared last caps,
      s' = mkSS shared last (Some (m_heads m)) (Some (m_need m)) (Some (m_have m))
             (if (length (filter (has_hash (applied d')) (m_heads m)) =? length (m_heads m))%nat
                 && nil_b (m_heads m)
              then []
              else filter_changes d' (m_heads m)
                     match m_flags m with
                     | Some f => if flag_has f FLAG_SYNC_RESET then [] else sent_hashes s
                     | None => sent_hashes s
                     end)
             false (have_responded s) caps (read_only s)
             match m_flags m with Some f => flag_has f FLAG_READ_ONLY | None => peer_read_only s end
             (needs_reset s).
  Proof.
    unfold receive_sync_message. intros H. apply bind_ok in H. destruct H as ([d1 sh] & E & H).
    injection H as <- <-. split; [|do 3 eexists; reflexivity].
    destruct (m_changes m) as [cs|]; [destruct (read_only s)|]; try (injection E as <- _; auto; fail).
    apply bind_ok in E. destruct E as (d2 & Er & E). injection E as <- _. right. exists cs. auto.
  Qed.

  (* C22: a receive on a read-only state never touches the document: all messages, all states *)
  Theorem read_only_receive_doc_unchanged (d : doc) (s : state) (m : msg) d' s' :
    read_only s = true -> rcv d s m = Ok (d', s') -> d' = d.
  Proof. intros Hro H. destruct (rcv_inv _ _ _ _ _ H) as [[E|(cs & _ & Hrw & _)] _]; congruence. Qed.

  Lemma receive_keeps_read_only (d : doc) (s : state) (m : msg) d' s' :
    rcv d s m = Ok (d', s') -> read_only s' = read_only s.
  Proof. intros H. destruct (rcv_inv _ _ _ _ _ H) as (_ & sh & ls & caps & ->). reflexivity. Qed.

  (* a message carrying the reset flag, or announcing no heads at all, empties the receiver's
     record of what it already sent *)
  Theorem reset_clears_sent_hashes (d : doc) (s : state) (m : msg) d' s' :
    rcv d s m = Ok (d', s') ->
    (exists f, m_flags m = Some f /\ flag_has f FLAG_SYNC_RESET = true) \/ m_heads m = [] ->
    sent_hashes s' = [].
  Proof.
    intros H Hc. destruct (rcv_inv _ _ _ _ _ H) as (_ & sh & ls & caps & ->). cbn [sent_hashes].
    destruct Hc as [(f & -> & ->)| ->]; [destruct (_ && _)|]; reflexivity.
  Qed.

  (* C20 safety: receiving a message only ever adds changes the message carries *)
  Theorem sync_only_adds_peer_changes (d : doc) (s : state) (m : msg) d' s' :
    rcv d s m = Ok (d', s') ->
    incl (applied d ++ queue d) (applied d' ++ queue d') /\
    forall c, In c (applied d' ++ queue d') -> In c (applied d ++ queue d) \/ In c (msg_changes m).
  Proof.
    intros H. destruct (rcv_inv _ _ _ _ _ H) as [[->|(cs & Em & _ & Er)] _]; [split; [apply incl_refl|auto]|].
    destruct (receive_keeps _ _ _ Er) as (_ & K2 & K3 & _). split; [exact K2|].
    intros c Hc. apply K3 in Hc. rewrite app_assoc in Hc. apply in_app_or in Hc.
    unfold msg_changes. rewrite Em. exact Hc.
  Qed.

  (* applied changes are never lost, and stay closed under dependencies *)
  Theorem sync_receive_monotone (d : doc) (s : state) (m : msg) d' s' :
    rcv d s m = Ok (d', s') -> incl (applied d) (applied d') /\ (dep_closed (applied d) -> dep_closed (applied d')).
  Proof.
    intros H. destruct (rcv_inv _ _ _ _ _ H) as [[->|(cs & _ & _ & Er)] _]; [split; [apply incl_refl|auto]|].
    split; [exact (proj1 (receive_keeps _ _ _ Er))|]. intros Hc. exact (receive_closed _ _ _ Hc Er).
  Qed.

  (* the closure extends the selection by hashes of the list, among them all those [init] picks *)
  Lemma close_dependents_spec init cs : forall sel, exists ext,
    close_dependents init cs sel = sel ++ ext /\ incl ext (hashes cs) /\
    forall c, In c cs -> init (ch_hash c) = true -> In (ch_hash c) ext.
  Proof.
    induction cs as [|x t IH]; intros sel; cbn [close_dependents].
    - exists []. rewrite app_nil_r. repeat split; [intros h []|intros c []].
    - destruct (init (ch_hash x) || existsb _ (ch_deps x)) eqn:Ec.
      + destruct (IH (sel ++ [ch_hash x])) as (ext & -> & I & K). exists (ch_hash x :: ext).
        rewrite <- app_assoc. repeat split.
        * intros h [<-|Hh]; [left; reflexivity|right; exact (I h Hh)].
        * intros c [<-|Hc] Hi; [left; reflexivity|right; exact (K c Hc Hi)].
      + destruct (IH sel) as (ext & -> & I & K). exists ext. repeat split.
        * intros h Hh. right. exact (I h Hh).
        * intros c [<-|Hc] Hi; [rewrite Hi in Ec; discriminate|exact (K c Hc Hi)].
  Qed.

  (* every change outside the ancestors of the peer's last_sync that none of its filters reports
     is among the hashes to send *)
  Lemma hashes_to_send_complete (d : doc) (hv : list (have B)) (nd : list N) c :
    hv <> [] ->
    In c (get_changes (applied d) (flat_map hv_last_sync hv)) ->
    all_negative b_query (map hv_bloom hv) (ch_hash c) = true ->
    In (ch_hash c) (get_hashes_to_send b_query d hv nd).
  Proof.
    intros Hne Hc Hneg. unfold get_hashes_to_send. destruct hv as [|h0 hv']; [congruence|].
    edestruct close_dependents_spec as (ext & -> & _ & K). apply in_or_app. right. exact (K c Hc Hneg).
  Qed.

  Lemma to_send_in_doc (d : doc) hv nd h :
    In h (get_hashes_to_send b_query d hv nd) -> has_hash (applied d) h = true.
  Proof.
    unfold get_hashes_to_send. intros H.
    assert (K : In h (filter (has_hash (applied d)) nd) -> has_hash (applied d) h = true).
    { intros X. apply filter_In in X. exact (proj2 X). }
    destruct hv as [|h0 hv']; [exact (K H)|].
    apply in_app_or in H. destruct H as [H|H].
    - apply filter_In in H. exact (K (proj1 H)).
    - edestruct close_dependents_spec as (ext & E & I & _).
      rewrite E in H. apply I, in_map_iff in H. destruct H as (c & <- & Hc).
      exact (has_hash_in _ _ (get_changes_sub _ _ _ Hc)).
  Qed.

  Lemma find_has_hash appl h : has_hash appl h = true -> exists c, find (fun c => ch_hash c =? h) appl = Some c.
  Proof.
    induction appl as [|x t IH]; cbn; [discriminate|].
    destruct (ch_hash x =? h); [intros _; exists x; reflexivity|]. cbn. exact IH.
  Qed.

  Lemma lookup_total appl : forall hs, (forall h, In h hs -> has_hash appl h = true) ->
    exists cs, lookup_changes appl hs = Some cs.
  Proof.
    induction hs as [|h t IH]; intros H; cbn; [exists []; reflexivity|].
    destruct (find_has_hash appl h (H h (or_introl eq_refl))) as [c ->].
    destruct IH as [r ->]; [intros x Hx; apply H; right; exact Hx|]. eexists; reflexivity.
  Qed.

  Lemma lookup_changes_hashes appl : forall hs cs, lookup_changes appl hs = Some cs -> hashes cs = hs /\ incl cs appl.
  Proof.
    induction hs as [|h t IH]; intros cs H; cbn in H.
    - inversion H; subst. split; [reflexivity|intros x []].
    - destruct (find (fun c => ch_hash c =? h) appl) as [c|] eqn:Ef; [|discriminate].
      destruct (lookup_changes appl t) as [r|] eqn:El; [|discriminate].
      destruct (IH r eq_refl) as [E I]. inversion H as [Hcs].
      apply find_some in Ef. destruct Ef as [Hin Heq]. apply N.eqb_eq in Heq.
      split. { unfold hashes in *. cbn [map]. rewrite E, Heq. reflexivity. }
      intros x [<-|Hx]; auto.
  Qed.

  (* the three builders: an empty one (read-only peer, or nothing known of the peer yet), the whole
     document, or the hashes to send that were not sent before, with their changes; the lookup of
     those changes cannot fail, so the `.ok()?` exit of generate_sync_message is never taken *)
  Lemma build_cases (d : doc) (s : state) :
    ((peer_read_only s = true \/ their_have s = None \/ their_need s = None) /\ bld d s = Some empty_builder) \/
    bld d s = Some (whole_doc d) \/
    exists hv nd cs, peer_read_only s = false /\ their_have s = Some hv /\ their_need s = Some nd /\
      incl cs (applied d) /\
      bld d s = Some (mkB (filter (fun h => negb (memN h (sent_hashes s))) (get_hashes_to_send b_query d hv nd))
                          (match cs with [] => None | _ => Some cs end)).
  Proof.
    unfold build. destruct (peer_read_only s); [left; auto|].
    destruct (their_have s) as [hv|]; [|left; auto].
    destruct (their_need s) as [nd|]; [|left; auto].
    destruct (send_doc s); [right; left; reflexivity|].
    set (hs := filter _ _). destruct (_ && supports_v2 s); [right; left; reflexivity|].
    destruct (lookup_total (applied d) hs) as [cs E].
    { intros h Hh. apply filter_In in Hh. exact (to_send_in_doc _ _ _ _ (proj1 Hh)). }
    rewrite E. right. right. exists hv, nd, cs. repeat split. exact (proj2 (lookup_changes_hashes _ _ _ E)).
  Qed.

  Lemma build_total (d : doc) (s : state) : exists b, bld d s = Some b.
  Proof. destruct (build_cases d s) as [[_ E]|[E|(hv & nd & cs & _ & _ & _ & _ & E)]]; eexists; exact E. Qed.

  (* the state with only the read-only flag changed *)
  Definition with_read_only (s : state) (ro : bool) : state :=
    mkSS (shared_heads s) (last_sent_heads s) (their_heads s) (their_need s) (their_have s)
         (sent_hashes s) (in_flight s) (have_responded s) (their_caps s) ro (peer_read_only s) (needs_reset s).

  (* which changes are put into a message does not depend on our own read-only flag *)
  Theorem build_ignores_read_only (d : doc) (s : state) (ro : bool) :
    bld d (with_read_only s ro) = bld d s.
  Proof. reflexivity. Qed.

  (* C22: what a peer sends does not depend on whether it is read-only: whenever the peer has told us what it
     has, every change it lacks (not an ancestor of its last_sync, reported by none of its filters, not
     sent before in this session) is carried by the builder of the next message *)
  Theorem read_only_still_sends (d : doc) (s : state) (ro : bool) hv nd b c :
    their_have s = Some hv -> hv <> [] -> their_need s = Some nd -> peer_read_only s = false ->
    bld d (with_read_only s ro) = Some b ->
    In c (get_changes (applied d) (flat_map hv_last_sync hv)) ->
    all_negative b_query (map hv_bloom hv) (ch_hash c) = true ->
    ~ In (ch_hash c) (sent_hashes s) ->
    In (ch_hash c) (b_hashes b).
  Proof.
    intros Hh Hne Hn Hp Hb Hc Hneg Hs. rewrite build_ignores_read_only in Hb.
    destruct (build_cases d s) as [[[E|[E|E]] _]|[E|(hv' & nd' & cs & _ & Hh' & Hn' & _ & E)]]; try congruence;
      rewrite E in Hb; inversion Hb; subst b; cbn [b_hashes whole_doc].
    - apply (in_map ch_hash), (get_changes_sub _ _ _ Hc).
    - assert (hv' = hv) as -> by congruence. assert (nd' = nd) as -> by congruence.
      apply filter_In. split; [apply hashes_to_send_complete; assumption|].
      apply negb_true_iff. rewrite <- not_true_iff_false. unfold memN. rewrite memb_N_In. exact Hs.
  Qed.

  (* generate, given the builder: the reset answer, silence, or the message with the state that
     records it as sent *)
  Lemma gen_eq (d : doc) (s : state) b :
    bld d s = Some b ->
    gen d s =
      if reset_cond d s then (s, Some (reset_message b_make (heads_of (applied d))))
      else if quiet s (heads_of (applied d)) b then (s, None)
      else
        (mkSS (shared_heads s) (heads_of (applied d)) (their_heads s) (their_need s) (their_have s)
              (set_of (sent_hashes s ++ b_hashes b)) true true (their_caps s)
              (read_only s) (peer_read_only s) false,
         let need := if read_only s then [] else missing_deps_from d (opt_list (their_heads s)) in
         let flags0 := N.lor FLAG_SUPPORTS_SYNC_RESET (if read_only s then FLAG_READ_ONLY else 0) in
         Some (mkMsg (if needs_reset s && negb (peer_supports_sync_reset s) then [] else heads_of (applied d))
                     need
                     (if forallb (fun h => memN h (opt_list (their_heads s))) need
                      then [make_bloom b_make d (shared_heads s)] else [])
                     (b_changes b)
                     (Some (if needs_reset s && peer_supports_sync_reset s
                            then N.lor flags0 FLAG_SYNC_RESET else flags0)))).
  Proof. intros E. unfold generate_sync_message. rewrite E. reflexivity. Qed.

  (* nothing is quiet before the first message of a session *)
  Lemma quiet_unanswered (s : state) hs b : have_responded s = false -> quiet s hs b = false.
  Proof. intros E. unfold quiet. rewrite E, andb_false_r. reflexivity. Qed.

  Lemma built_changes_held (d : doc) (s : state) b :
    bld d s = Some b -> incl (opt_list (b_changes b)) (applied d ++ queue d).
  Proof.
    intros Eb. destruct (build_cases d s) as [[_ E]|[E|(hv & nd & cs & _ & _ & _ & I & E)]];
      rewrite E in Eb; injection Eb as <-; cbn.
    - intros x [].
    - apply incl_refl.
    - destruct cs; [intros x []|]. apply incl_appl. exact I.
  Qed.

  (* C20: what a message carries comes from the sender's document (applied or held) *)
  Theorem generated_changes_from_sender (d : doc) (s : state) s' m :
    gen d s = (s', Some m) -> incl (msg_changes m) (applied d ++ queue d).
  Proof.
    intros H. destruct (build_total d s) as [b Eb]. rewrite (gen_eq d s b Eb) in H.
    destruct (reset_cond d s); [injection H as _ <-; intros x []|].
    destruct (quiet s (heads_of (applied d)) b); [discriminate|].
    injection H as _ <-. exact (built_changes_held d s b Eb).
  Qed.

  (* C22: a read-only peer that has something to send and is not waiting for an answer sends it, flagged read-only *)
  Theorem read_only_generate_sends (d : doc) (s : state) b :
    read_only s = true -> reset_cond d s = false -> bld d s = Some b ->
    b_hashes b <> [] -> in_flight s = false ->
    exists s' m, gen d s = (s', Some m) /\ m_changes m = b_changes b /\
                 m_flags m <> None /\ (forall f, m_flags m = Some f -> flag_has f FLAG_READ_ONLY = true) /\
                 m_need m = [] /\ read_only s' = true /\ in_flight s' = true.
  Proof.
    intros Hro Hr Hb Hne Hif. rewrite (gen_eq d s b Hb), Hr.
    assert (Q : quiet s (heads_of (applied d)) b = false).
    { unfold quiet. rewrite Hif, orb_false_r. destruct (b_hashes b); [congruence|]. cbn [nil_b].
      rewrite !andb_false_r. reflexivity. }
    rewrite Q, Hro. eexists. eexists. split; [reflexivity|]. cbn [m_changes m_flags m_need read_only in_flight].
    split; [reflexivity|]. split; [discriminate|]. split; [|auto].
    intros f Hf. inversion Hf; subst. destruct (needs_reset s && peer_supports_sync_reset s); reflexivity.
  Qed.

  (* switching back to read-write forgets the session and asks the peer to forget what it sent *)
  Theorem set_read_only_false_resets (s : state) :
    read_only s = true ->
    set_read_only s false =
      mkSS [] [] None None None [] false false (their_caps s) false false true.
  Proof. intros H. unfold set_read_only. rewrite H. reflexivity. Qed.

  Lemma missing_deps_from_nil_start (d : doc) : missing_deps_from d [] = [].
  Proof.
    unfold missing_deps_from. cbn [reach_queued]. rewrite (filter_all_false _ (queue d)) by reflexivity. reflexivity.
  Qed.

  Theorem set_read_only_false_requests_reset (d : doc) (s : state) :
    read_only s = true ->
    exists s2 m, gen d (set_read_only s false) = (s2, Some m) /\
      needs_reset s2 = false /\ read_only s2 = false /\ in_flight s2 = true /\
      m_need m = [] /\ m_have m = [make_bloom b_make d []] /\ m_changes m = None /\
      ((peer_supports_sync_reset s = true /\ m_heads m = heads_of (applied d) /\
        exists f, m_flags m = Some f /\ flag_has f FLAG_SYNC_RESET = true /\ flag_has f FLAG_READ_ONLY = false)
       \/ (peer_supports_sync_reset s = false /\ m_heads m = [] /\
           exists f, m_flags m = Some f /\ flag_has f FLAG_READ_ONLY = false)).
  Proof.
    intros Hro. rewrite (set_read_only_false_resets _ Hro). set (s0 := mkSS _ _ _ _ _ _ _ _ _ _ _ _).
    change (peer_supports_sync_reset s) with (peer_supports_sync_reset s0).
    rewrite (gen_eq d s0 empty_builder eq_refl), quiet_unanswered by reflexivity.
    cbn [s0 reset_cond their_have read_only their_heads opt_list shared_heads needs_reset andb].
    rewrite missing_deps_from_nil_start. eexists. eexists. split; [reflexivity|]. cbn.
    repeat (split; [reflexivity|]).
    destruct (peer_supports_sync_reset s0); [left|right]; repeat split; eexists; repeat split.
  Qed.

  (* State::decode (State::encode s) keeps the shared heads and nothing else *)
  Theorem decode_encode_state_resets_session (s0 : state) :
    persist s0 = mkSS (shared_heads s0) [] None None (Some []) [] false false None false false false.
  Proof. reflexivity. Qed.

  (* when the peer's last_sync names a change we do not have (it synced with an incarnation of us that
     had more than we have now), we answer with a reset message and keep our state *)
  Theorem reset_when_last_sync_unknown (d : doc) (s : state) h rest x :
    their_have s = Some (h :: rest) -> In x (hv_last_sync h) -> has_hash (applied d) x = false ->
    gen d s = (s, Some (reset_message b_make (heads_of (applied d)))).
  Proof.
    intros Hh Hx Hn. destruct (build_total d s) as [b Eb]. rewrite (gen_eq d s b Eb).
    unfold reset_cond. rewrite Hh. destruct (forallb _ _) eqn:F; [|reflexivity].
    rewrite forallb_forall in F. rewrite (F x Hx) in Hn. discriminate.
  Qed.

  (* C22 catch-up, first half: the peer that switched back has sent its reset; once the writer has received
     it, the writer's next builder carries every change of the writer that the filter (built from ALL
     changes of the switched peer) does not report *)
  Theorem catch_up_after_reset_partial (dR dW : doc) (sR sW : state) :
    read_only sR = true ->
    exists sR2 m, gen dR (set_read_only sR false) = (sR2, Some m) /\
      forall dW' sW', rcv dW sW m = Ok (dW', sW') ->
        dW' = dW /\ sent_hashes sW' = [] /\ peer_read_only sW' = false /\
        forall b, bld dW sW' = Some b ->
          forall c, In c (applied dW) ->
            b_query (b_make (hashes (applied dR))) (ch_hash c) = false ->
            In (ch_hash c) (b_hashes b).
  Proof.
    intros Hro.
    destruct (set_read_only_false_requests_reset dR sR Hro) as (s2 & m & Hg & _ & _ & _ & Hneed & Hhave & Hch & Hfl).
    exists s2, m. split; [exact Hg|]. intros dW' sW' Hr.
    assert (Hsent : sent_hashes sW' = []).
    { apply (reset_clears_sent_hashes _ _ _ _ _ Hr).
      destruct Hfl as [(_ & _ & f & Hf & Hs & _)|(_ & Hh & _)]; [left; exists f; auto|right; exact Hh]. }
    destruct (rcv_inv _ _ _ _ _ Hr) as [[->|(cs & E & _)] (sh & ls & caps & Es)]; [|congruence].
    assert (Hpro : peer_read_only sW' = false).
    { rewrite Es. cbn [peer_read_only]. destruct Hfl as [(_ & _ & f & -> & _ & Hq)|(_ & _ & f & -> & Hq)]; exact Hq. }
    repeat split; [exact Hsent|exact Hpro|]. intros b Hb c Hc Hq.
    apply (read_only_still_sends dW sW' (read_only sW') [make_bloom b_make dR []] [] b c).
    - rewrite Es, <- Hhave. reflexivity.
    - discriminate.
    - rewrite Es, <- Hneed. reflexivity.
    - exact Hpro.
    - subst sW'. exact Hb.
    - cbn. rewrite get_changes_nil. exact Hc.
    - cbn. rewrite get_changes_nil, Hq. reflexivity.
    - rewrite Hsent. intros [].
  Qed.
End P.
