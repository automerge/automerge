(* Codec/BloomProofs.v — the Bloom filter of sync/bloom.rs (C23, C17, C15): no false negative for a
   filter built from up to [small] hashes (adding a hash only sets bits: [keeps]); to_bytes / parse
   round trip; parse never panics, and a parsed filter answers every query ([bloom_parse_shape]). *)
From AM Require Import Base.Prelude Base.Leb128 Gen.Consts Codec.Bloom.
Local Open Scope N_scope.

(* facts about the constants the source declares today; if a constant changes
   so that one fails, the theorems below are no longer shown *)
Lemma BPE_pos : 1 <= BITS_PER_ENTRY. Proof. vm_compute. discriminate. Qed.
Lemma BPE_u32 : BITS_PER_ENTRY <= u32_max. Proof. vm_compute. discriminate. Qed.
Lemma NP_u32 : NUM_PROBES <= u32_max. Proof. vm_compute. discriminate. Qed.
Lemma NP_fits : NUM_PROBES <= 8 * bits_capacity 1 BITS_PER_ENTRY. Proof. vm_compute. discriminate. Qed.

Lemma lenN_app {A} (a b : list A) : lenN (a ++ b) = lenN a + lenN b.
Proof. unfold lenN. rewrite app_length. lia. Qed.

Lemma take_N_app {A} (a r : list A) : take_N (lenN a) (a ++ r) = Some (a, r).
Proof. apply take_n_N_spec. auto. Qed.

Lemma take_N_sound {A} n (l a r : list A) : take_N n l = Some (a, r) -> l = a ++ r /\ lenN a = n.
Proof. apply take_n_N_spec. Qed.

Lemma upd_length l i g : length (upd l i g) = length l.
Proof. revert i; induction l as [|b t IH]; intros [|i]; cbn; auto. Qed.

Lemma set_bit_length bits p : length (set_bit bits p) = length bits.
Proof. apply upd_length. Qed.

Lemma fold_set_bit_length ps : forall bits, length (fold_left set_bit ps bits) = length bits.
Proof.
  induction ps as [|p ps IH]; intros bits; cbn [fold_left]; [reflexivity|].
  rewrite IH. apply set_bit_length.
Qed.

Lemma nth_error_upd l g : forall i j,
  nth_error (upd l i g) j =
  if Nat.eqb i j then option_map g (nth_error l j) else nth_error l j.
Proof.
  induction l as [|b t IH]; intros i j.
  - cbn. destruct j; destruct (Nat.eqb i _); reflexivity.
  - destruct i as [|i], j as [|j]; cbn; try reflexivity. apply IH.
Qed.

Lemma bit_ok_set_same bits p : bit_ok (set_bit bits p) p = true.
Proof.
  unfold bit_ok, set_bit. rewrite nth_error_upd, Nat.eqb_refl.
  destruct (nth_error bits (N.to_nat (p / 8))) as [b|]; cbn [option_map]; [|reflexivity].
  rewrite N.lor_spec, N.pow2_bits_true. apply orb_true_r.
Qed.

Lemma bit_ok_set_mono bits p q : bit_ok bits q = true -> bit_ok (set_bit bits p) q = true.
Proof.
  unfold bit_ok, set_bit. rewrite nth_error_upd.
  destruct (Nat.eqb (N.to_nat (p / 8)) (N.to_nat (q / 8))); [|auto].
  destruct (nth_error bits (N.to_nat (q / 8))) as [b|]; cbn [option_map]; [|auto].
  intros H. rewrite N.lor_spec, H. reflexivity.
Qed.

Lemma fold_set_ok ps : forall bits q,
  In q ps \/ bit_ok bits q = true -> bit_ok (fold_left set_bit ps bits) q = true.
Proof.
  induction ps as [|p ps IH]; intros bits q H; cbn [fold_left].
  - destruct H as [[]|H]. exact H.
  - apply IH. destruct H as [[->|H]|H].
    + right. apply bit_ok_set_same.
    + left. exact H.
    + right. apply bit_ok_set_mono, H.
Qed.

(* one round of [get_probes]' loop on residues modulo m: with 2 * m <= 2^32 the sums fit a u32 *)
Lemma probe_step_ok m z x y acc : x < m -> y < m -> z < m -> 2 * m <= pow32 ->
  probe_step m z (Ok (x, y, acc)) = Ok ((x + y) mod m, (y + z) mod m, (x + y) mod m :: acc).
Proof.
  intros Hx Hy Hz Hm. unfold probe_step. cbn [bind].
  assert ((pow32 <=? x + y) || (pow32 <=? y + z) = false) as -> by lia. reflexivity.
Qed.

(* probes are computed without panic when the modulus is positive and below 2^31 *)
Lemma probes_of_ok len p h :
  1 <= len -> 16 * len <= pow32 -> exists ps, probes_of len p h = Ok ps.
Proof.
  intros H1 H2. unfold probes_of.
  assert ((pow32 <=? 8 * len) = false) as -> by (unfold pow32 in *; lia).
  assert ((8 * len =? 0) = false) as -> by lia.
  assert (Hm : 8 * len <> 0 /\ 2 * (8 * len) <= pow32) by lia.
  revert Hm. generalize (8 * len). intros m [Hm0 Hm].
  assert (Hinv : exists x y acc,
             N.iter (p - 1) (probe_step m (le32 h 8 mod m)) (Ok (le32 h 0 mod m, le32 h 4 mod m, [le32 h 0 mod m]))
             = Ok (x mod m, y mod m, acc)).
  { apply N.iter_invariant; [|do 3 eexists; reflexivity].
    intros st (x & y & acc & ->). rewrite probe_step_ok by (try apply N.mod_lt; assumption).
    do 3 eexists. reflexivity. }
  destruct Hinv as (x & y & acc & ->). cbn [bind]. eauto.
Qed.

Definition keeps (f f' : filter) : Prop :=
  f_entries f' = f_entries f /\ f_bpe f' = f_bpe f /\ f_probes f' = f_probes f /\
  length (f_bits f') = length (f_bits f) /\
  forall q, bit_ok (f_bits f) q = true -> bit_ok (f_bits f') q = true.

Lemma keeps_refl f : keeps f f.
Proof. repeat split; auto. Qed.

Lemma keeps_trans a b c : keeps a b -> keeps b c -> keeps a c.
Proof.
  intros (A1 & A2 & A3 & A4 & A5) (B1 & B2 & B3 & B4 & B5). repeat split; try congruence. auto.
Qed.

Lemma add_hash_keeps f h f' : add_hash f h = Ok f' -> keeps f f'.
Proof.
  unfold add_hash. destruct (get_probes f h) as [ps| |]; cbn [bind]; try discriminate.
  intros H; inversion H; subst; clear H. repeat split; cbn.
  - apply fold_set_bit_length.
  - intros q Hq. apply fold_set_ok. right. exact Hq.
Qed.

Lemma add_all_keeps hs : forall f f', add_all f hs = Ok f' -> keeps f f'.
Proof.
  induction hs as [|h t IH]; intros f f' H; cbn [add_all] in H.
  - inversion H; subst. apply keeps_refl.
  - apply bind_ok in H as (f1 & E & H).
    eapply keeps_trans; [eapply add_hash_keeps, E|eapply IH, H].
Qed.

Lemma get_probes_keeps f f' h : keeps f f' -> get_probes f' h = get_probes f h.
Proof. intros (_ & _ & H2 & H3 & _). unfold get_probes, lenN. rewrite H2, H3. reflexivity. Qed.

(* a hash that was added: its probes were computed on the way, later additions keep both the
   probes and the bits they set *)
Lemma add_all_member hs : forall f f' h,
  add_all f hs = Ok f' -> In h hs ->
  exists ps, get_probes f' h = Ok ps /\ forallb (bit_ok (f_bits f')) ps = true.
Proof.
  induction hs as [|h0 t IH]; intros f f' h H Hin; [destruct Hin|].
  cbn [add_all] in H. apply bind_ok in H as (f1 & E & H).
  destruct Hin as [->|Hin]; [|exact (IH f1 f' h H Hin)].
  pose proof (add_hash_keeps _ _ _ E) as K1. pose proof (add_all_keeps _ _ _ H) as K2.
  unfold add_hash in E. destruct (get_probes f h) as [ps| |] eqn:Hps; try discriminate.
  injection E as <-. exists ps.
  split; [rewrite (get_probes_keeps _ _ h K2), (get_probes_keeps _ _ h K1); exact Hps|].
  apply forallb_forall. intros q Hq. apply K2. cbn [f_bits]. apply fold_set_ok. left. exact Hq.
Qed.

Lemma add_all_ok hs : forall f,
  1 <= lenN (f_bits f) -> 16 * lenN (f_bits f) <= pow32 -> exists f', add_all f hs = Ok f'.
Proof.
  induction hs as [|h t IH]; intros f H1 H2; cbn [add_all]; [eauto|].
  unfold add_hash, get_probes.
  destruct (probes_of_ok _ (f_probes f) h H1 H2) as [ps ->]. cbn [bind].
  apply IH; cbn; unfold lenN in *; rewrite fold_set_bit_length; assumption.
Qed.

Definition small (hs : list bytes) : Prop := 2 * (BITS_PER_ENTRY * lenN hs + 7) <= pow32.

Lemma bits_capacity_mono e e' b : e <= e' -> bits_capacity e b <= bits_capacity e' b.
Proof.
  intros H. apply N.div_le_mono; [discriminate|]. apply N.add_le_mono_r, N.mul_le_mono_r, H.
Qed.

Lemma cap_bounds e b :
  1 <= e -> 1 <= b -> 2 * (b * e + 7) <= pow32 ->
  1 <= bits_capacity e b /\ 16 * bits_capacity e b <= pow32.
Proof.
  intros He Hb H. unfold bits_capacity, pow32 in *.
  assert (1 <= e * b) by nia. replace (b * e) with (e * b) in H by lia.
  revert H H0. generalize (e * b). intros x H H0. split; lia.
Qed.

Lemma lenN_repeat {A} (x : A) n : lenN (repeat x (N.to_nat n)) = n.
Proof. unfold lenN. rewrite repeat_length. apply N2Nat.id. Qed.

Lemma from_hashes_ok hs : small hs -> exists f, from_hashes hs = Ok f.
Proof.
  intros Hs. unfold from_hashes. destruct hs as [|h0 t] eqn:Ehs; [cbn; eauto|]. rewrite <- Ehs in *.
  assert (1 <= lenN hs) by (subst hs; unfold lenN; cbn [length]; lia).
  pose proof (cap_bounds _ _ H BPE_pos Hs) as [C1 C2].
  apply add_all_ok; cbn [f_bits]; rewrite lenN_repeat; assumption.
Qed.

Theorem bloom_no_false_negative hs h :
  small hs -> In h hs ->
  exists f, from_hashes hs = Ok f /\ contains f h = Ok true.
Proof.
  intros Hs Hin. destruct (from_hashes_ok _ Hs) as [f Hf]. exists f. split; [exact Hf|].
  destruct (add_all_member hs _ f h Hf Hin) as (ps & Hps & Hall).
  destruct (add_all_keeps _ _ _ Hf) as (K1 & _). cbn [f_entries] in K1.
  unfold contains. rewrite Hps, K1. cbn [bind]. rewrite Hall.
  destruct hs; [destruct Hin|].
  (* the probes of h could be computed, so the bit array is not empty *)
  destruct (f_bits f) eqn:Eb; [unfold get_probes in Hps; rewrite Eb in Hps; discriminate|]. reflexivity.
Qed.

Lemma uleb_u32_roundtrip n rest : n <= u32_max -> uleb_dec_u32 (uleb_enc n ++ rest) = Ok (n, rest).
Proof.
  intros H. unfold uleb_dec_u32. rewrite uleb_roundtrip by (unfold u32_max, pow64 in *; lia).
  cbn [bind]. assert ((n <=? u32_max) = true) as -> by lia. reflexivity.
Qed.

Definition wf_filter (f : filter) : Prop :=
  f_entries f <> 0 /\ f_entries f <= u32_max /\ f_bpe f <= u32_max /\ f_probes f <= u32_max /\
  lenN (f_bits f) = bits_capacity (f_entries f) (f_bpe f) /\
  (f_bits f <> [] -> f_probes f <= 8 * lenN (f_bits f)).

Lemma parse_to_bytes f : wf_filter f -> parse (to_bytes f) = Ok (f, []).
Proof.
  intros (H0 & He & Hb & Hp & Hlen & Hpr). unfold to_bytes.
  assert ((f_entries f =? 0) = false) as -> by lia.
  unfold parse.
  destruct (uleb_enc (f_entries f) ++ uleb_enc (f_bpe f) ++ uleb_enc (f_probes f) ++ f_bits f) eqn:E.
  { apply app_eq_nil in E. destruct E as [E _]. destruct (uleb_enc_nonempty _ E). }
  rewrite <- E. clear E.
  rewrite uleb_u32_roundtrip by assumption. cbn [bind].
  rewrite uleb_u32_roundtrip by assumption. cbn [bind].
  rewrite uleb_u32_roundtrip by assumption. cbn [bind].
  rewrite <- Hlen. rewrite <- (app_nil_r (f_bits f)) at 2. rewrite take_N_app.
  assert (negb (nil_b (f_bits f)) && (8 * lenN (f_bits f) <? f_probes f) = false) as ->.
  { destruct (f_bits f); [reflexivity|]. specialize (Hpr ltac:(discriminate)). cbn [nil_b negb andb]. lia. }
  destruct f; reflexivity.
Qed.

Lemma from_hashes_wf hs f :
  hs <> [] -> lenN hs <= u32_max -> from_hashes hs = Ok f -> wf_filter f.
Proof.
  intros Hne Hu Hf. unfold from_hashes in Hf. pose proof (add_all_keeps _ _ _ Hf) as (K1 & Hbpe & K2 & K3 & _).
  cbn [f_entries f_bpe f_probes f_bits] in *.
  assert (1 <= lenN hs) by (destruct hs; [congruence|unfold lenN; cbn [length]; lia]).
  assert (L : lenN (f_bits f) = bits_capacity (lenN hs) BITS_PER_ENTRY).
  { unfold lenN at 1. rewrite K3. apply lenN_repeat. }
  pose proof BPE_u32. pose proof NP_u32. pose proof NP_fits.
  pose proof (bits_capacity_mono 1 (lenN hs) BITS_PER_ENTRY H).
  unfold wf_filter. rewrite K1, K2, Hbpe, L.
  repeat split; try assumption; lia.
Qed.

Theorem bloom_roundtrip hs f :
  lenN hs <= u32_max -> from_hashes hs = Ok f -> parse (to_bytes f) = Ok (f, []).
Proof.
  intros Hu Hf. destruct hs as [|h0 t] eqn:E.
  - cbn in Hf. inversion Hf; subst. reflexivity.
  - apply parse_to_bytes. eapply from_hashes_wf; eauto. discriminate.
Qed.

(* [BloomFilter::parse]: the bit array is [bits_capacity entries bits_per_entry] bytes TAKEN from
   the input, and the probe count is at most the number of bits (fix 6de6d80cd) *)
Lemma bloom_parse_shape bs f rest :
  parse bs = Ok (f, rest) ->
  (length (f_bits f) + length rest <= length bs)%nat
  /\ bits_capacity (f_entries f) (f_bpe f) = lenN (f_bits f)
  /\ (f_bits f = [] \/ f_probes f <= 8 * lenN (f_bits f)).
Proof.
  unfold parse. destruct bs as [|b0 bt] eqn:Eb.
  { intros H; inversion H; subst. cbn. split; [lia|]. split; [reflexivity|auto]. }
  rewrite <- Eb. clear Eb b0 bt. intros H.
  apply bind_ok in H as ([e i1] & E1 & H). apply bind_ok in H as ([b i2] & E2 & H).
  apply bind_ok in H as ([p i3] & E3 & H).
  destruct (take_N (bits_capacity e b) i3) as [[bits r]|] eqn:E4; [|discriminate].
  destruct (negb (nil_b bits) && (8 * lenN bits <? p)) eqn:E5; [discriminate|].
  inversion H; subst; clear H. cbn [f_bits f_entries f_bpe f_probes].
  apply uleb_dec_u32_rest in E1 as (_ & p1 & -> & _), E2 as (_ & p2 & -> & _), E3 as (_ & p3 & -> & _).
  apply take_N_sound in E4 as [-> E4]. rewrite !app_length.
  split; [lia|]. split; [symmetry; exact E4|].
  destruct bits as [|x t]; [left; reflexivity|right]. cbn [nil_b negb andb] in E5. lia.
Qed.

(* A decoded filter answers every query with a boolean.  The size bound is the
   point at which u32 arithmetic in [get_probes] could overflow in a debug
   build: a filter of 2^28 bytes (256 MiB). *)
Theorem bloom_query_total bs f rest h :
  parse bs = Ok (f, rest) -> 16 * lenN bs <= pow32 -> exists b, contains f h = Ok b.
Proof.
  intros Hp Hsz. apply bloom_parse_shape in Hp as (Hl & _). unfold contains.
  destruct ((f_entries f =? 0) || nil_b (f_bits f)) eqn:E; [eauto|].
  apply orb_false_iff in E. destruct E as [_ E].
  assert (1 <= lenN (f_bits f)) by (destruct (f_bits f); [discriminate|unfold lenN; cbn [length]; lia]).
  unfold get_probes.
  destruct (@probes_of_ok (lenN (f_bits f)) (f_probes f) h) as [ps ->]; [lia|unfold lenN in *; lia|].
  cbn [bind]. eauto.
Qed.

(* C17: work per query is linear in the size of the decoded input *)
Theorem bloom_query_cost bs f rest :
  parse bs = Ok (f, rest) -> query_steps f <= 8 * lenN bs.
Proof.
  intros Hp. apply bloom_parse_shape in Hp as (Hl & _ & Hpr). unfold query_steps.
  destruct ((f_entries f =? 0) || nil_b (f_bits f)) eqn:E; [lia|].
  apply orb_false_iff in E. destruct E as [_ E].
  destruct Hpr as [Hpr|Hpr]; [rewrite Hpr in E; discriminate|]. unfold lenN in *. lia.
Qed.

Theorem bloom_parse_no_panic bs : parse bs <> Panic.
Proof.
  unfold parse. destruct bs as [|b0 bt] eqn:E; [discriminate|]. rewrite <- E. clear E.
  apply bind_no_panic; [apply uleb_dec_u32_no_panic|]. intros [e i1] _.
  apply bind_no_panic; [apply uleb_dec_u32_no_panic|]. intros [b i2] _.
  apply bind_no_panic; [apply uleb_dec_u32_no_panic|]. intros [p i3] _.
  destruct (take_N (bits_capacity e b) i3) as [[bits r]|]; try discriminate.
  destruct (negb (nil_b bits) && (8 * lenN bits <? p)); discriminate.
Qed.

(* non-vacuity: a two-element filter, its wire form, and a hostile input *)
Definition h1 : bytes := map N.of_nat (seq 1 32).
Definition h2 : bytes := map N.of_nat (seq 101 32).
Example small_nonvacuous : small [h1; h2]. Proof. vm_compute. discriminate. Qed.
Example contains_example :
  (let* f := from_hashes [h1; h2] in contains f h2) = Ok true. Proof. vm_compute. reflexivity. Qed.
Example hostile_example :
  (let* (f, _) := parse [1; 0; 7] in contains f h1) = Ok false. Proof. vm_compute. reflexivity. Qed.
Example hostile_probes_rejected : parse [1; 8; 255; 255; 255; 127; 170] = Err.
Proof. vm_compute. reflexivity. Qed.
