(* Codec/CostProofs.v — cost bounds of the modelled decoders (C17).

   Wherever a number read from the wire sizes an allocation or a loop in a MODELLED decoder, the
   size of what is decoded (list lengths, byte lengths: what the Rust allocates) and the number of
   loop iterations are bounded by the number of input bytes; a declared count or length larger
   than the remaining input is rejected.

   The decoders: the LEB128 readers; [length_prefixed_bytes] and [read_many] / [length_prefixed]
   (storage/parse.rs, the [for _ in 0..count] loop); the sync message and state (sync.rs,
   sync/state.rs); the Bloom filter (sync/bloom.rs); ExId and Cursor from bytes (exid.rs,
   cursor.rs); the change chunk body (storage/change.rs); the chunk header (storage/chunk.rs).

   Lengths are [nat] ([length]); [Bloom.lenN] / [Chunk.lenN] are [N.of_nat (length _)].
   [take_N] / [lenN] exist both in Codec/Bloom.v and in Store/Chunk.v: they are qualified below. *)
From AM Require Import Base.Prelude Base.ListFacts Base.Leb128 Base.Sleb128 Base.Sleb128Proofs Gen.Consts.
From AM Require Import Hexane.Hleb Hexane.HlebProofs.
From AM Require Import Store.Chunk Store.ChunkProofs Store.ChangeChunk Store.ChangeChunkProofs.
From AM Require Import Codec.Bloom Codec.BloomProofs Codec.Hex Codec.SyncCodec Codec.SyncProofs
  Codec.ExId Codec.CursorCodec.

Lemma rest_to_k (l r : bytes) (m : nat) :
  (exists pre, l = pre ++ r /\ 1 <= length pre <= m) ->
  exists k, 1 <= k <= m /\ length l = k + length r /\ l = firstn k l ++ r.
Proof.
  intros (pre & -> & H). exists (length pre). rewrite app_length, firstn_length_app. auto.
Qed.

(* sum of the weights of the elements of a list *)
Fixpoint wsum {A} (w : A -> nat) (xs : list A) : nat :=
  match xs with
  | [] => 0
  | x :: t => w x + wsum w t
  end.

Lemma wsum_const {A} (c : nat) (xs : list A) : wsum (fun _ => c) xs = c * length xs.
Proof. induction xs as [|x t IH]; cbn [wsum length]; lia. Qed.

Lemma wsum_S {A} (w : A -> nat) (xs : list A) :
  wsum (fun x => S (w x)) xs = length xs + wsum w xs.
Proof. induction xs as [|x t IH]; cbn [wsum length]; lia. Qed.

Lemma wsum_length_concat (xs : list bytes) : wsum (@length N) xs = length (concat xs).
Proof. induction xs as [|x t IH]; cbn [wsum concat]; [reflexivity|]. rewrite app_length. lia. Qed.

Lemma wsum_app {A} (w : A -> nat) (a b : list A) : wsum w (a ++ b) = wsum w a + wsum w b.
Proof. induction a as [|x t IH]; cbn [wsum app]; lia. Qed.

(* the one notion behind every bound below: the parser [p] accounts in input bytes for the weight
   [w] of what it returns.  [consumes p] (Codec/SyncProofs.v) is [costs p (fun _ => 1)].  A lemma named [x_costs] is an
   instance of this predicate; [x_cost] is the exact shape the reader [x] has. *)
Definition costs {A} (p : bytes -> res (A * bytes)) (w : A -> nat) : Prop :=
  forall i x r, p i = Ok (x, r) -> w x + length r <= length i.

Lemma costs_le {A} (p : bytes -> res (A * bytes)) (w w' : A -> nat) :
  costs p w -> (forall x, w' x <= w x) -> costs p w'.
Proof. intros Hc Hw i x r H. apply Hc in H. specialize (Hw x). lia. Qed.

(* storage/parse/leb128.rs [leb128_u64] *)
Lemma uleb_dec_cost l v r :
  uleb_dec l = Ok (v, r) ->
  exists k, 1 <= k <= 10 /\ length l = k + length r /\ l = firstn k l ++ r.
Proof. intros H. apply rest_to_k. eapply uleb_dec_rest. exact H. Qed.

Lemma uleb_dec_costs : costs uleb_dec (fun _ => 1).
Proof. intros l v r H. apply uleb_dec_rest in H as (pre & -> & Hp). rewrite app_length. lia. Qed.

Lemma uleb_dec_u32_cost l v r :
  uleb_dec_u32 l = Ok (v, r) ->
  (v <= u32_max)%N /\ exists k, 1 <= k <= 10 /\ length l = k + length r /\ l = firstn k l ++ r.
Proof.
  intros H. apply uleb_dec_u32_rest in H as [Hv H]. split; [exact Hv|]. apply rest_to_k, H.
Qed.

(* storage/parse/leb128.rs [leb128_i64] *)
Lemma sleb_dec_cost l v r :
  sleb_dec l = Ok (v, r) ->
  exists k, 1 <= k <= 10 /\ length l = k + length r /\ l = firstn k l ++ r.
Proof. intros H. apply rest_to_k. eapply sdec_rest. exact H. Qed.

Lemma sleb_dec_costs : costs sleb_dec (fun _ => 1).
Proof. intros l v r H. apply sdec_rest in H as (pre & -> & Hp). rewrite app_length. lia. Qed.

(* hexane: the `leb128` crate's readers accept over-long encodings, but the same 1..10 bound holds *)
Lemma hleb_u_cost l v r :
  hleb_u l = Some (v, r) ->
  exists k, 1 <= k <= 10 /\ length l = k + length r /\ l = firstn k l ++ r.
Proof. intros H. apply rest_to_k. eapply hudec_rest. exact H. Qed.

Lemma hleb_s_cost l v r :
  hleb_s l = Some (v, r) ->
  exists k, 1 <= k <= 10 /\ length l = k + length r /\ l = firstn k l ++ r.
Proof. intros H. apply rest_to_k. eapply hsdec_rest. exact H. Qed.

(* a LEB128 length, then that many bytes: [length_prefixed_bytes], and the readers of ids, cursors
   and chunk headers that have it inline.  The bytes handed on are present in the input, besides
   the (at least one byte of) prefix *)
Lemma lp_bytes_ok {B} (k : bytes -> bytes -> res B) i y :
  (let* (len, i1) := uleb_dec i in
   match Bloom.take_N len i1 with None => Err | Some (a, i2) => k a i2 end) = Ok y ->
  exists a i2, k a i2 = Ok y /\ S (length a) + length i2 <= length i.
Proof.
  intros H. apply bind_ok in H as ([len i1] & E & H).
  destruct (Bloom.take_N len i1) as [[a i2]|] eqn:T; [|discriminate].
  apply uleb_dec_costs in E. apply BloomProofs.take_N_sound in T as [-> _]. rewrite app_length in E.
  exists a, i2. split; [exact H|lia].
Qed.

Lemma lpb_cost : costs length_prefixed_bytes (fun b => S (length b)).
Proof. intros i b r H. apply lp_bytes_ok in H as (a & i2 & H & L). inversion H; subst. exact L. Qed.

(* a declared length beyond the remaining input is an error *)
Lemma lpb_overlong i n i' :
  uleb_dec i = Ok (n, i') -> (Bloom.lenN i' < n)%N -> length_prefixed_bytes i = Err.
Proof.
  intros E H. unfold length_prefixed_bytes. rewrite E. cbn [bind]. unfold Bloom.take_N.
  assert ((Bloom.lenN i' <? n)%N = true) as -> by lia. reflexivity.
Qed.

Section ManyCost.
  Context {A : Type} (item : bytes -> res (A * bytes)) (w : A -> nat).
  Hypothesis Hw : costs item w.

  Lemma read_many_cost : forall fuel count i xs r,
    read_many item fuel count i = Ok (xs, r) ->
    wsum w xs + length r <= length i /\ N.of_nat (length xs) = count.
  Proof.
    induction fuel as [|f IH]; intros count i xs r H; cbn [read_many] in H;
      destruct (count =? 0)%N eqn:Ec.
    - inversion H; subst. cbn [wsum length]. lia.
    - discriminate.
    - inversion H; subst. cbn [wsum length]. lia.
    - apply bind_ok in H as ([y s] & E & H). apply bind_ok in H as ([ys s2] & E2 & H).
      inversion H; subst. apply IH in E2. apply Hw in E. cbn [wsum length]. lia.
  Qed.

  Lemma length_prefixed_cost i xs r :
    length_prefixed item i = Ok (xs, r) -> wsum w xs + length r + 1 <= length i.
  Proof.
    intros H. apply bind_ok in H as ([count i1] & E & H).
    apply uleb_dec_costs in E. apply read_many_cost in H. lia.
  Qed.
End ManyCost.

Section ManyIters.
  Context {A : Type} (item : bytes -> res (A * bytes)).
  Hypothesis Hc : consumes item.

  (* elements pushed + bytes left <= bytes given, whatever count the wire declares *)
  Lemma read_many_len fuel count i xs r :
    read_many item fuel count i = Ok (xs, r) -> length xs + length r <= length i.
  Proof.
    intros H. apply (read_many_cost item (fun _ => 1) Hc) in H. rewrite wsum_const in H. lia.
  Qed.

  Lemma length_prefixed_len i xs r :
    length_prefixed item i = Ok (xs, r) -> length xs + length r + 1 <= length i.
  Proof.
    intros H. apply (length_prefixed_cost item (fun _ => 1) Hc) in H. rewrite wsum_const in H. lia.
  Qed.

  (* a declared count above the number of remaining bytes never succeeds *)
  Lemma read_many_overcount fuel count i xs r :
    (Bloom.lenN i < count)%N -> read_many item fuel count i <> Ok (xs, r).
  Proof.
    intros Hn H. apply (read_many_cost item (fun _ => 1) Hc) in H. rewrite wsum_const in H.
    unfold Bloom.lenN in Hn. lia.
  Qed.

  (* the loop itself: number of calls of [item] made by [read_many], successful or not
     (an instrumented copy of [read_many]: same tests, same recursion) *)
  Fixpoint read_many_iters (fuel : nat) (count : N) (i : bytes) : nat :=
    if (count =? 0)%N then 0
    else match fuel with
         | O => 0
         | S f =>
           match item i with
           | Ok (_, i') => S (read_many_iters f (count - 1) i')
           | _ => 1
           end
         end.

  (* at most one iteration per input byte, plus the failing one: a count of 2^64-1 declared in
     ten bytes is rejected after at most |input| + 1 calls of [item] *)
  Lemma read_many_iters_bound : forall fuel count i,
    read_many_iters fuel count i <= S (length i) /\ (N.of_nat (read_many_iters fuel count i) <= count)%N.
  Proof.
    induction fuel as [|f IH]; intros count i; cbn [read_many_iters];
      destruct (count =? 0)%N eqn:Ec; try (split; lia).
    destruct (item i) as [[x i']| |] eqn:E; try (split; lia).
    apply Hc in E. specialize (IH (count - 1)%N i'). split; lia.
  Qed.

  (* a successful run made exactly one call per element *)
  Lemma read_many_iters_ok : forall fuel count i xs r,
    read_many item fuel count i = Ok (xs, r) -> read_many_iters fuel count i = length xs.
  Proof.
    induction fuel as [|f IH]; intros count i xs r H; cbn [read_many read_many_iters] in *;
      destruct (count =? 0)%N eqn:Ec; try (inversion H; subst; reflexivity); try discriminate.
    apply bind_ok in H as ([y s] & E & H). apply bind_ok in H as ([ys s2] & E2 & H).
    inversion H; subst. rewrite E. cbn [length]. f_equal. eapply IH. exact E2.
  Qed.
End ManyIters.

Lemma read_many_forall {A} (item : bytes -> res (A * bytes)) (P : A -> Prop) :
  (forall i x r, item i = Ok (x, r) -> P x) ->
  forall fuel count i xs r, read_many item fuel count i = Ok (xs, r) -> Forall P xs.
Proof.
  intros HP. induction fuel as [|f IH]; intros count i xs r H; cbn [read_many] in H;
    destruct (count =? 0)%N; try (inversion H; subst; constructor); try discriminate.
  apply bind_ok in H as ([y s] & E & H). apply bind_ok in H as ([ys s2] & E2 & H).
  inversion H; subst. constructor; [eapply HP; exact E|eapply IH; exact E2].
Qed.

Lemma length_prefixed_forall {A} (item : bytes -> res (A * bytes)) (P : A -> Prop) :
  (forall i x r, item i = Ok (x, r) -> P x) ->
  forall i xs r, length_prefixed item i = Ok (xs, r) -> Forall P xs.
Proof.
  intros HP i xs r H. apply bind_ok in H as ([count i1] & _ & H). eapply read_many_forall; eauto.
Qed.

(* a hash is exactly 32 bytes of the input *)
Lemma change_hash_cost i h r :
  change_hash i = Ok (h, r) -> length h = 32 /\ length i = 32 + length r.
Proof.
  unfold change_hash. intros H.
  destruct (Bloom.take_N Consts.HASH_SIZE i) as [[h' r']|] eqn:E; [|discriminate].
  destruct (Bloom.lenN h' =? Consts.HASH_SIZE)%N; [|discriminate]. inversion H; subst.
  apply BloomProofs.take_N_sound in E. destruct E as [-> E]. rewrite app_length.
  unfold Bloom.lenN in E. change Consts.HASH_SIZE with 32%N in E. lia.
Qed.

Lemma change_hash_costs : costs change_hash (fun _ => 32).
Proof. intros i x r H. apply change_hash_cost in H. lia. Qed.

(* hashes: 32 bytes each *)
Lemma parse_hashes_cost i hs r :
  parse_hashes i = Ok (hs, r) ->
  32 * length hs + length r + 1 <= length i /\ Forall (fun h => length h = 32) hs.
Proof.
  intros H. split.
  - apply (length_prefixed_cost _ _ change_hash_costs) in H. rewrite wsum_const in H. lia.
  - eapply (length_prefixed_forall change_hash); [|exact H].
    intros j x s Hj. apply change_hash_cost in Hj. tauto.
Qed.

(* a count of hashes that the remaining input cannot hold is rejected *)
Lemma parse_hashes_overcount i n i' :
  uleb_dec i = Ok (n, i') -> (Bloom.lenN i' < 32 * n)%N -> forall hs r, parse_hashes i <> Ok (hs, r).
Proof.
  intros E Hn hs r H. unfold parse_hashes, length_prefixed in H. rewrite E in H. cbn [bind] in H.
  apply (read_many_cost _ _ change_hash_costs) in H. rewrite wsum_const in H.
  unfold Bloom.lenN in Hn. lia.
Qed.

(* [BloomFilter::parse] ([bloom_parse_shape], Codec/BloomProofs.v): entries * bits_per_entry is
   bounded by the bytes present, and a query costs at most 8 * |input| steps *)
Lemma bloom_parse_cost bs f rest :
  Bloom.parse bs = Ok (f, rest) ->
  (Bloom.lenN (f_bits f) + Bloom.lenN rest <= Bloom.lenN bs)%N
  /\ (f_bits f = [] \/ (f_probes f <= 8 * Bloom.lenN (f_bits f))%N)
  /\ (query_steps f <= 8 * Bloom.lenN bs)%N.
Proof.
  intros H. pose proof (bloom_query_cost _ _ _ H) as Hq.
  apply bloom_parse_shape in H. destruct H as (H1 & _ & H3).
  split; [unfold Bloom.lenN; lia|]. split; [exact H3|exact Hq].
Qed.

Lemma bloom_parse_capacity bs f rest :
  Bloom.parse bs = Ok (f, rest) ->
  bits_capacity (f_entries f) (f_bpe f) = Bloom.lenN (f_bits f)
  /\ (f_entries f * f_bpe f <= 8 * Bloom.lenN bs)%N.
Proof.
  intros H. apply bloom_parse_shape in H. destruct H as (H1 & H2 & _).
  split; [exact H2|]. unfold bits_capacity in H2. unfold Bloom.lenN in *.
  assert (N.of_nat (length (f_bits f)) <= N.of_nat (length bs))%N by lia.
  set (eb := (f_entries f * f_bpe f)%N) in *. lia.
Qed.

(* declared sizes that the input cannot hold are rejected before anything is built: a bit array
   longer than the remaining input, or more probes than bits *)
Lemma bloom_parse_overdeclared bs e b p i1 i2 i3 :
  bs <> [] ->
  uleb_dec_u32 bs = Ok (e, i1) -> uleb_dec_u32 i1 = Ok (b, i2) -> uleb_dec_u32 i2 = Ok (p, i3) ->
  (Bloom.lenN i3 < bits_capacity e b)%N
  \/ (bits_capacity e b <> 0 /\ 8 * bits_capacity e b < p)%N ->
  Bloom.parse bs = Err.
Proof.
  intros Hne E1 E2 E3 Hbad. unfold Bloom.parse. destruct bs as [|b0 bt]; [congruence|].
  rewrite E1. cbn [bind]. rewrite E2. cbn [bind]. rewrite E3. cbn [bind].
  destruct (Bloom.take_N (bits_capacity e b) i3) as [[bits r]|] eqn:E4; [|reflexivity].
  apply BloomProofs.take_N_sound in E4. destruct E4 as [-> E4]. unfold Bloom.lenN in E4.
  destruct Hbad as [Hbad|(Hc & Hp)].
  - exfalso. unfold Bloom.lenN in Hbad. rewrite app_length in Hbad. lia.
  - destruct bits as [|x t]; [cbn [length] in E4; lia|]. cbn [nil_b negb andb].
    assert ((8 * Bloom.lenN (x :: t) <? p)%N = true) as -> by (unfold Bloom.lenN; lia).
    reflexivity.
Qed.

(* [get_probes]: the Vec of probes has max(probes, 1) elements: one to start with, one more per
   round of the loop *)
Lemma probes_of_length len p h ps :
  probes_of len p h = Ok ps -> Bloom.lenN ps = N.max p 1.
Proof.
  unfold probes_of. destruct (pow32 <=? 8 * len)%N; [discriminate|].
  destruct (8 * len =? 0)%N; [discriminate|]. intros H.
  apply bind_ok in H as ([[x y] acc] & E & H). inversion H; subst; clear H.
  enough (Bloom.lenN acc = (p - 1 + 1)%N) by (unfold Bloom.lenN in *; rewrite rev_length; lia).
  revert x y acc E. apply N.iter_ind.
  - intros x y acc E. inversion E; subst. reflexivity.
  - intros n st IH x y acc E. apply bind_ok in E as ([[x' y'] acc'] & -> & E).
    destruct (_ || _); [discriminate|]. inversion E; subst.
    specialize (IH _ _ _ eq_refl). unfold Bloom.lenN in *. cbn [length]. lia.
Qed.

(* the probe list built by one [contains_hash] on a decoded filter is at most 8 * |input| long *)
Lemma bloom_contains_probes bs f rest h ps :
  Bloom.parse bs = Ok (f, rest) -> f_bits f <> [] -> get_probes f h = Ok ps ->
  Bloom.lenN ps = N.max (f_probes f) 1 /\ (Bloom.lenN ps <= 8 * Bloom.lenN bs)%N.
Proof.
  intros Hp Hne Hg. unfold get_probes in Hg. apply probes_of_length in Hg. split; [exact Hg|].
  apply bloom_parse_shape in Hp. destruct Hp as (H1 & _ & [H3|H3]); [congruence|].
  destruct (f_bits f) as [|x t]; [congruence|]. unfold Bloom.lenN in *. cbn [length] in *. lia.
Qed.

(* bytes held by a decoded Have: its hashes and the bit array of its Bloom filter *)
Definition have_size (h : have) : nat :=
  32 * length (h_last_sync h) + length (f_bits (h_bloom h)).

Lemma parse_have_cost : costs parse_have (fun h => have_size h + 2).
Proof.
  intros i h r H. apply bind_ok in H as ([ls i1] & E1 & H). apply bind_ok in H as ([bb i2] & E2 & H).
  apply bind_ok in H as ([f y] & E3 & H). inversion H; subst. unfold have_size. cbn [h_last_sync h_bloom].
  apply parse_hashes_cost in E1 as [E1 _]. apply lpb_cost in E2.
  apply bloom_parse_shape in E3 as (E3 & _). lia.
Qed.

(* what a decoded message holds: one unit per element of the four Vecs, 32 bytes per hash, the
   Bloom bit arrays, the bytes of the changes *)
Definition haves_size (hs : list have) : nat := wsum (fun h => S (have_size h)) hs.
Definition changes_size (cs : list bytes) : nat := wsum (fun c : bytes => S (length c)) cs.
Definition msg_size (m : message) : nat :=
  32 * length (m_heads m) + 32 * length (m_need m) + haves_size (m_have m) + changes_size (m_changes m).

Lemma haves_size_eq hs : haves_size hs = length hs + wsum have_size hs.
Proof. apply wsum_S. Qed.

Lemma changes_size_eq cs : changes_size cs = length cs + length (concat cs).
Proof. unfold changes_size. rewrite wsum_S, wsum_length_concat. reflexivity. Qed.

Lemma message_parse_cost i m r :
  message_parse i = Ok (m, r) -> msg_size m + length r + 5 <= length i.
Proof.
  intros H. apply bind_ok in H as ([v i0] & E0 & H). apply bind_ok in H as ([heads i1] & E1 & H).
  apply bind_ok in H as ([need i2] & E2 & H). apply bind_ok in H as ([hv i3] & E3 & H).
  apply bind_ok in H as ([chs i4] & E4 & H). apply bind_ok in H as ([fl i5] & E5 & H).
  inversion H; subst; clear H. unfold msg_size, haves_size, changes_size. cbn [m_heads m_need m_have m_changes].
  assert (length i = 1 + length i0).
  { unfold version_parse in E0. destruct i as [|b t]; [discriminate|].
    destruct (b =? MESSAGE_TYPE_SYNC)%N; [inversion E0; subst; reflexivity|].
    destruct (b =? MESSAGE_TYPE_SYNC_V2)%N; [inversion E0; subst; reflexivity|discriminate]. }
  assert (length r <= length i4).
  { destruct i4 as [|c i4']; [inversion E5; subst; lia|].
    apply bind_ok in E5 as ([raw i6] & E5 & E6). inversion E6; subst. apply lpb_cost in E5. lia. }
  apply parse_hashes_cost in E1 as [E1 _], E2 as [E2 _].
  apply (length_prefixed_cost _ (fun h => S (have_size h))) in E3;
    [|apply (costs_le _ _ _ parse_have_cost); intros; lia].
  apply (length_prefixed_cost _ _ lpb_cost) in E4. lia.
Qed.

Lemma message_decode_cost i m : message_decode i = Ok m -> msg_size m + 5 <= length i.
Proof.
  intros H. apply bind_ok in H as ([m' r] & E & H). inversion H; subst. apply message_parse_cost in E. lia.
Qed.

(* the four Vecs together have at most |input| elements; the bytes of the changes and of the
   Bloom bit arrays are at most |input| *)
Lemma message_decode_counts i m :
  message_decode i = Ok m ->
  length (m_heads m) + length (m_need m) + length (m_have m) + length (m_changes m) <= length i
  /\ length (concat (m_changes m)) + wsum have_size (m_have m) <= length i.
Proof.
  intros H. apply message_decode_cost in H. unfold msg_size in H.
  rewrite haves_size_eq, changes_size_eq in H. lia.
Qed.

(* a decoded sync state holds the shared heads only, 32 bytes each *)
Lemma state_decode_cost i s :
  state_decode i = Ok s ->
  32 * length (s_shared_heads s) + 2 <= length i /\ s = state_persisted (s_shared_heads s).
Proof.
  unfold state_decode. intros H. destruct i as [|b t]; [discriminate|].
  destruct (negb (b =? SYNC_STATE_TYPE)%N); [discriminate|].
  apply bind_ok in H as ([hs r] & E & H). inversion H; subst. cbn [s_shared_heads state_persisted length].
  apply parse_hashes_cost in E as [E _]. split; [lia|reflexivity].
Qed.

Lemma p_take_cost n i a r :
  p_take n i = Ok (a, r) -> N.of_nat (length a) = n /\ length i = length a + length r.
Proof.
  intros H. apply p_take_spec in H. destruct H as [-> H]. rewrite app_length.
  unfold Chunk.lenN in H. split; [exact H|reflexivity].
Qed.

(* a length the input does not hold is an error *)
Lemma p_take_overlong n i : (Chunk.lenN i < n)%N -> p_take n i = Err.
Proof.
  intros H. unfold p_take, Chunk.take_N. assert ((Chunk.lenN i <? n)%N = true) as -> by lia. reflexivity.
Qed.

Lemma p_hash_cost i h r : p_hash i = Ok (h, r) -> length h = 32 /\ length i = 32 + length r.
Proof.
  unfold p_hash. intros H. apply p_take_cost in H. change ChangeChunk.HASH_SIZE with 32%N in H. lia.
Qed.

Lemma p_hash_costs : costs p_hash (fun _ => 32).
Proof. intros i x r H. apply p_hash_cost in H. lia. Qed.

Lemma p_lpbytes_cost : costs p_lpbytes (fun a => S (length a)).
Proof.
  intros i a r H. apply bind_ok in H as ([n i1] & E & H). apply uleb_dec_costs in E. apply p_take_cost in H. lia.
Qed.

Lemma p_lpbytes_overlong i n i' :
  uleb_dec i = Ok (n, i') -> (Chunk.lenN i' < n)%N -> p_lpbytes i = Err.
Proof. intros E H. unfold p_lpbytes. rewrite E. cbn [bind]. apply p_take_overlong, H. Qed.

Lemma p_nonzero_cost : costs p_nonzero (fun _ => 1).
Proof.
  intros i n r H. apply bind_ok in H as ([n' i1] & E & H).
  destruct (n' =? 0)%N; [discriminate|]. inversion H; subst. apply uleb_dec_costs in E. exact E.
Qed.

Lemma p_colpair_cost : costs p_colpair (fun _ => 2).
Proof.
  intros i c r H. apply bind_ok in H as ([s i1] & E1 & H). apply bind_ok in H as ([l i2] & E2 & H).
  inversion H; subst. apply uleb_dec_u32_rest in E1 as (_ & p1 & -> & H1).
  apply uleb_dec_costs in E2. rewrite app_length. lia.
Qed.

Section RepCost.
  Context {A : Type} (p : bytes -> res (A * bytes)) (w : A -> nat).
  Hypothesis Hw : costs p w.

  Lemma rep_nat_cost n : forall i xs r,
    rep_nat p n i = Ok (xs, r) -> wsum w xs + length r <= length i /\ length xs = n.
  Proof.
    induction n as [|n IH]; intros i xs r H; cbn [rep_nat] in H.
    - inversion H; subst. cbn [wsum length]. lia.
    - apply bind_ok in H as ([x i1] & E & H). apply bind_ok in H as ([t i2] & E2 & H).
      inversion H; subst. apply IH in E2. apply Hw in E. cbn [wsum length]. lia.
  Qed.

  Lemma p_counted_cost i xs r :
    p_counted p i = Ok (xs, r) -> wsum w xs + length r + 1 <= length i.
  Proof.
    intros H. apply bind_ok in H as ([n i1] & E & H). apply uleb_dec_costs in E.
    unfold p_rep in H. destruct (Chunk.lenN i1 <? n)%N; [discriminate|].
    apply rep_nat_cost in H. lia.
  Qed.
End RepCost.

(* The model's [p_rep] rejects a count above the number of remaining bytes at once, where the Rust
   [apply_n] loops.  The loop cannot succeed either: every element consumes a byte, so it ends in
   an error after at most |input| + 1 iterations — the shortcut changes no result. *)
Lemma rep_nat_overcount {A} (p : bytes -> res (A * bytes)) :
  (forall i x r, p i = Ok (x, r) -> length r < length i) -> (forall l, p l <> Panic) ->
  forall n i, length i < n -> rep_nat p n i = Err.
Proof.
  intros Hc Hnp n. induction n as [|n IH]; intros i Hn; [lia|]. cbn [rep_nat].
  destruct (p i) as [[x i1]| |] eqn:E; cbn [bind]; [|reflexivity|destruct (Hnp i E)].
  apply Hc in E. rewrite IH by lia. reflexivity.
Qed.

(* column metadata: every declared column is two bytes of input at least *)
Lemma p_columns_cost i cols r :
  p_columns i = Ok (cols, r) -> 2 * length cols + length r + 1 <= length i.
Proof.
  intros H. apply bind_ok in H as ([raw i1] & E & H). cbn zeta in H.
  destruct (negb (normal_sorted (map fst (col_ranges 0 raw)))); [discriminate|].
  inversion H; subst. rewrite col_ranges_length.
  apply (p_counted_cost _ _ p_colpair_cost) in E. rewrite wsum_const in E. lia.
Qed.

(* bytes held by a decoded change body *)
Definition body_size (c : change_body) : nat :=
  32 * length (cb_deps c) + length (cb_actor c) + length (cb_message c)
  + wsum (fun a : bytes => S (length a)) (cb_others c)
  + 2 * length (cb_cols c) + length (cb_data c) + length (cb_extra c).

Lemma parse_body_cost b c :
  parse_body b = Ok c ->
  body_size c + 8 <= length b
  /\ N.of_nat (length (cb_data c)) = sumN (map snd (cb_cols c)).
Proof.
  intros H. apply bind_ok in H as ([deps i1] & E1 & H). apply bind_ok in H as ([actor i2] & E2 & H).
  apply bind_ok in H as ([seq i3] & E3 & H). apply bind_ok in H as ([start i4] & E4 & H).
  apply bind_ok in H as ([time i5] & E5 & H). apply bind_ok in H as ([msg i6] & E6 & H).
  destruct (negb (utf8_valid msg)); [discriminate|].
  apply bind_ok in H as ([others i7] & E7 & H). apply bind_ok in H as ([cols i8] & E8 & H).
  apply bind_ok in H as (total & E9 & H). apply bind_ok in H as ([data extra] & E10 & H).
  destruct (existsb spec_deflate (map fst cols)); [discriminate|].
  destruct (negb (layout_ok (map fst cols))); [discriminate|].
  inversion H; subst; clear H. unfold body_size.
  cbn [cb_deps cb_actor cb_message cb_others cb_cols cb_data cb_extra].
  apply (p_counted_cost _ _ p_hash_costs) in E1. rewrite wsum_const in E1.
  apply p_lpbytes_cost in E2, E6. apply uleb_dec_costs in E3. apply p_nonzero_cost in E4.
  apply sleb_dec_costs in E5. apply (p_counted_cost _ _ p_lpbytes_cost) in E7.
  apply p_columns_cost in E8. apply sum_checked_spec in E9. apply p_take_cost in E10. lia.
Qed.

(* the counts and lengths individually *)
Lemma parse_body_counts b c :
  parse_body b = Ok c ->
  32 * length (cb_deps c) <= length b /\ length (cb_actor c) <= length b
  /\ length (cb_message c) <= length b
  /\ length (cb_others c) + length (concat (cb_others c)) <= length b
  /\ 2 * length (cb_cols c) <= length b
  /\ (sumN (map snd (cb_cols c)) <= N.of_nat (length b))%N.
Proof.
  intros H. apply parse_body_cost in H. destruct H as [H1 H2]. unfold body_size in H1.
  rewrite wsum_S, wsum_length_concat in H1. repeat split; lia.
Qed.

Definition exid_size (e : exid) : nat :=
  match e with ERoot => 0 | EId _ a _ => length a end.

(* the actor bytes are taken from the input: tag, length, hint and counter are four more bytes *)
Lemma exid_of_bytes_cost l e :
  exid_of_bytes l = Ok e ->
  exid_size e + 1 <= length l /\ (e <> ERoot -> exid_size e + 4 <= length l).
Proof.
  unfold exid_of_bytes. intros H. destruct l as [|tag i]; [discriminate|].
  destruct (negb (N.land tag 15 =? EXID_VERSION_TAG)%N); [discriminate|].
  destruct (N.shiftr tag 4 =? EXID_TYPE_ROOT)%N.
  { inversion H; subst. cbn [exid_size length]. split; [lia|congruence]. }
  destruct (N.shiftr tag 4 =? EXID_TYPE_ID)%N; [|discriminate].
  apply lp_bytes_ok in H as (a & i2 & H & L).
  apply bind_ok in H as ([h i3] & E3 & H). apply bind_ok in H as ([c i4] & E4 & H).
  inversion H; subst. cbn [exid_size length]. apply uleb_dec_costs in E3, E4. lia.
Qed.

Definition cursor_size (c : cursor) : nat :=
  match c with COp _ a _ => length a | _ => 0 end.

Lemma cursor_parse_0_cost i c : cursor_parse_0 i = Ok c -> cursor_size c + 2 <= length i.
Proof.
  intros H. apply lp_bytes_ok in H as (a & i2 & H & L).
  apply bind_ok in H as ([ctr i3] & E3 & H). inversion H; subst. cbn [cursor_size].
  apply uleb_dec_costs in E3. lia.
Qed.

Lemma cursor_of_bytes_cost l c : cursor_of_bytes l = Ok c -> cursor_size c + 2 <= length l.
Proof.
  unfold cursor_of_bytes. intros H. destruct l as [|version i]; [discriminate|].
  destruct (version =? 0)%N.
  { apply cursor_parse_0_cost in H. cbn [length]. lia. }
  destruct (negb (version =? CURSOR_VERSION_TAG)%N); [discriminate|].
  destruct i as [|ty i]; [discriminate|].
  destruct (ty =? CURSOR_START_TAG)%N; [inversion H; subst; cbn [cursor_size length]; lia|].
  destruct (ty =? CURSOR_END_TAG)%N; [inversion H; subst; cbn [cursor_size length]; lia|].
  destruct (ty =? CURSOR_OP_TAG)%N; [|discriminate].
  apply lp_bytes_ok in H as (a & i2 & H & L).
  apply bind_ok in H as ([ctr i3] & E3 & H). destruct i3 as [|mt i4]; [discriminate|].
  assert (Hc : cursor_size c = length a).
  { destruct (mt =? CURSOR_MOVE_AFTER_TAG)%N; [inversion H; subst; reflexivity|].
    destruct (mt =? CURSOR_MOVE_BEFORE_TAG)%N; [inversion H; subst; reflexivity|discriminate]. }
  rewrite Hc. apply uleb_dec_costs in E3. cbn [length] in *. lia.
Qed.

(* [Header::parse]: the declared data length is present in the input, after the ten bytes of
   magic, checksum, type and (at least one byte of) length *)
Lemma parse_header_cost bs h rest :
  parse_header bs = Ok (h, rest) ->
  length (h_data h) + length rest + 10 <= length bs /\ length (h_checksum h) = 4.
Proof.
  unfold parse_header. intros H.
  destruct (take_n 4 bs) as [[magic i]|] eqn:E1; [|discriminate].
  destruct (negb (bytes_eqb magic MAGIC_BYTES)); [discriminate|].
  destruct (take_n 4 i) as [[ck i2]|] eqn:E2; [|discriminate].
  destruct i2 as [|ty i3]; [discriminate|].
  destruct (negb (valid_type ty)); [discriminate|].
  apply lp_bytes_ok in H as (data & r & H & L). inversion H; subst. cbn [h_data h_checksum].
  apply take_n_sound in E1 as [-> L1], E2 as [-> L2]. rewrite !app_length. cbn [length].
  split; [lia|exact L2].
Qed.

(* a declared chunk length beyond the input is an error *)
Lemma parse_header_overlong magic ck ty len i i' :
  length magic = 4 -> length ck = 4 ->
  uleb_dec i = Ok (len, i') -> (Chunk.lenN i' < len)%N ->
  parse_header (magic ++ ck ++ ty :: i) = Err.
Proof.
  intros L1 L2 E Hn. unfold parse_header.
  assert (take_n 4 (magic ++ ck ++ ty :: i) = Some (magic, ck ++ ty :: i)) as ->
    by (apply take_n_spec; auto).
  destruct (negb (bytes_eqb magic MAGIC_BYTES)); [reflexivity|].
  assert (take_n 4 (ck ++ ty :: i) = Some (ck, ty :: i)) as -> by (apply take_n_spec; auto).
  destruct (negb (valid_type ty)); [reflexivity|].
  rewrite E. cbn [bind]. unfold Chunk.take_N.
  assert ((Chunk.lenN i' <? len)%N = true) as -> by lia. reflexivity.
Qed.

(* [Chunk::parse] + checksum test: a chunk that parses consumed at least ten bytes, so the chunk
   loops of [load] / [load_changes] run at most |input| / 10 times *)
Lemma parse_chunk_cost (Hsh : bytes -> bytes) (C : Type) (body : N -> bytes -> option (list C))
  (inflate : bytes -> option bytes) bs ty cs rest :
  parse_chunk Hsh C body inflate bs = Ok (ty, cs, rest) -> length rest + 10 <= length bs.
Proof.
  intros H. apply bind_ok in H as ([h r] & E & H). apply parse_header_cost in E as [E _].
  assert (rest = r) as ->; [|lia].
  destruct (h_type h =? CHUNK_COMPRESSED)%N.
  - destruct (inflate (h_data h)) as [plain|]; [|discriminate].
    destruct (body CHUNK_CHANGE plain) as [cs'|]; [|discriminate].
    destruct (bytes_eqb (checksum_of Hsh CHUNK_CHANGE plain) (h_checksum h)); [|discriminate].
    inversion H; reflexivity.
  - destruct (body (h_type h) (h_data h)) as [cs'|]; [|discriminate].
    destruct (bytes_eqb (checksum_of Hsh (h_type h) (h_data h)) (h_checksum h)); [|discriminate].
    inversion H; reflexivity.
Qed.
