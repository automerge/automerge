(* Codec/SyncProofs.v — sync State / Message: round trips, decoders never panic, the fuel of
   [length_prefixed] is immaterial; and the two values that do not survive the round trip (flag bit 7,
   a non-default filter with zero entries). *)
From AM Require Import Base.Prelude Base.ListFacts Base.Leb128 Base.Order Gen.Consts Codec.Bloom Codec.BloomProofs
  Codec.Hex Codec.HexProofs Codec.SyncCodec.
Local Open Scope N_scope.

Lemma wf_hashb_len h : wf_hashb h = true -> lenN h = HASH_SIZE.
Proof. unfold wf_hashb, lenN. intros H. apply andb_true_iff in H. destruct H as [H _]. lia. Qed.

Lemma change_hash_app h r : lenN h = HASH_SIZE -> change_hash (h ++ r) = Ok (h, r).
Proof.
  intros Hl. unfold change_hash. rewrite <- Hl at 1. rewrite take_N_app. rewrite Hl, N.eqb_refl. reflexivity.
Qed.

Lemma change_hash_no_panic i : change_hash i <> Panic.
Proof.
  unfold change_hash. destruct (take_N HASH_SIZE i) as [[h r]|] eqn:E; [|discriminate].
  apply take_N_sound in E. destruct E as [_ E]. rewrite E, N.eqb_refl. discriminate.
Qed.

Lemma lpb_app b r : lenN b < pow64 -> length_prefixed_bytes (uleb_enc (lenN b) ++ b ++ r) = Ok (b, r).
Proof.
  intros H. unfold length_prefixed_bytes. rewrite uleb_roundtrip by assumption. cbn [bind].
  rewrite take_N_app. reflexivity.
Qed.

Lemma lpb_no_panic i : length_prefixed_bytes i <> Panic.
Proof.
  apply bind_no_panic; [apply uleb_dec_no_panic|]. intros [len i1] _.
  destruct (take_N len i1) as [[b i2]|]; discriminate.
Qed.

Section ManyProofs.
  Context {A : Type} (item : bytes -> res (A * bytes)).

  Lemma read_many_enc (enc : A -> bytes) : forall xs fuel rest,
    (forall x r, In x xs -> item (enc x ++ r) = Ok (x, r)) ->
    (length xs <= fuel)%nat ->
    read_many item fuel (lenN xs) (concat (map enc xs) ++ rest) = Ok (xs, rest).
  Proof.
    induction xs as [|x xs IH]; intros fuel rest Hitem Hfuel.
    - destruct fuel; reflexivity.
    - destruct fuel as [|f]; [cbn in Hfuel; lia|].
      cbn [read_many]. assert (lenN (x :: xs) = 1 + lenN xs) as -> by (unfold lenN; cbn [length]; lia).
      assert ((1 + lenN xs =? 0) = false) as -> by lia.
      cbn [map concat]. rewrite <- app_assoc. rewrite Hitem by (left; reflexivity). cbn [bind].
      assert (1 + lenN xs - 1 = lenN xs) as -> by lia.
      rewrite IH; [reflexivity| |cbn [length] in Hfuel; lia].
      intros y r Hy. apply Hitem. right. exact Hy.
  Qed.

  Lemma length_prefixed_enc (enc : A -> bytes) xs rest :
    lenN xs < pow64 ->
    (forall x r, In x xs -> item (enc x ++ r) = Ok (x, r)) ->
    (forall x, In x xs -> enc x <> []) ->
    length_prefixed item (uleb_enc (lenN xs) ++ concat (map enc xs) ++ rest) = Ok (xs, rest).
  Proof.
    intros Hl Hitem Hne. unfold length_prefixed. rewrite uleb_roundtrip by assumption. cbn [bind].
    apply read_many_enc; [exact Hitem|].
    rewrite app_length. apply Nat.le_trans with (1 := concat_length_ge enc xs Hne), le_S, Nat.le_add_r.
  Qed.

  Lemma read_many_no_panic : (forall i, item i <> Panic) ->
    forall fuel count i, read_many item fuel count i <> Panic.
  Proof.
    intros Hitem. induction fuel as [|f IH]; intros count i; cbn [read_many];
      destruct (count =? 0); try discriminate.
    apply bind_no_panic; [apply Hitem|]. intros [x i1] _.
    apply bind_no_panic; [apply IH|]. intros [r i2] _. discriminate.
  Qed.

  Lemma length_prefixed_no_panic : (forall i, item i <> Panic) ->
    forall i, length_prefixed item i <> Panic.
  Proof.
    intros Hitem i. apply bind_no_panic; [apply uleb_dec_no_panic|]. intros [count i1] _.
    apply read_many_no_panic, Hitem.
  Qed.

  (* the fuel is immaterial once it exceeds the input length, provided every item that succeeds
     consumes at least one byte: the Rust loop has no fuel.  The three items of the sync codec
     (hashes, haves, changes) do: [C17_items_consume], from the bounds of Codec/CostProofs.v *)
  Definition consumes : Prop := forall i x r, item i = Ok (x, r) -> (length r < length i)%nat.

  Lemma read_many_fuel : consumes ->
    forall f1 f2 count i, (length i < f1)%nat -> (length i < f2)%nat ->
      read_many item f1 count i = read_many item f2 count i.
  Proof.
    intros Hc. induction f1 as [|f1 IH]; intros f2 count i H1 H2; [lia|].
    destruct f2 as [|f2]; [lia|]. cbn [read_many]. destruct (count =? 0); [reflexivity|].
    destruct (item i) as [[x r]| |] eqn:E; cbn [bind]; try reflexivity.
    apply Hc in E. rewrite (IH f2 (count - 1) r) by lia. reflexivity.
  Qed.
End ManyProofs.

(* hence the model's fuel never runs out before the input does: any larger fuel gives the same result *)
Theorem length_prefixed_fuel_immaterial {A} (item : bytes -> res (A * bytes)) :
  consumes item -> forall f count i, (length i < f)%nat ->
  read_many item f count i = read_many item (S (length i)) count i.
Proof. intros Hc f count i Hf. apply read_many_fuel; [exact Hc|exact Hf|lia]. Qed.

Lemma wf_hashesb_parts hs : wf_hashesb hs = true ->
  lenN hs < pow64 /\ (forall h, In h hs -> wf_hashb h = true) /\ hashes_sortedb hs = true.
Proof.
  unfold wf_hashesb. rewrite !andb_true_iff, forallb_forall. intros [[Hl Hf] Hs].
  repeat split; [lia|exact Hf|exact Hs].
Qed.

Definition hashes_bytes (hs : list bytes) : bytes := uleb_enc (lenN hs) ++ concat hs.

Lemma encode_hashes_ok hs : hashes_sortedb hs = true -> encode_hashes hs = Ok (hashes_bytes hs).
Proof. intros H. unfold encode_hashes. rewrite H. reflexivity. Qed.

Lemma parse_hashes_app hs rest : wf_hashesb hs = true ->
  parse_hashes (hashes_bytes hs ++ rest) = Ok (hs, rest).
Proof.
  intros H. apply wf_hashesb_parts in H. destruct H as (Hl & Hf & _).
  unfold parse_hashes, hashes_bytes. rewrite <- app_assoc.
  rewrite <- (map_id hs) at 2.
  apply length_prefixed_enc; [exact Hl| |].
  - intros h r Hh. apply change_hash_app, wf_hashb_len, Hf, Hh.
  - intros h Hh ->. discriminate (Hf _ Hh).
Qed.

Lemma parse_hashes_no_panic i : parse_hashes i <> Panic.
Proof. apply length_prefixed_no_panic, change_hash_no_panic. Qed.

Lemma flags_all :
  forallb (fun f => flags_parse_bytes [LEGACY_V2_BYTE; N.lor BITFIELD_MARKER f] =? f)
          (map N.of_nat (seq 0 128)) = true.
Proof. vm_compute. reflexivity. Qed.

Lemma flags_value f : f < BITFIELD_MARKER ->
  flags_parse_bytes [LEGACY_V2_BYTE; N.lor BITFIELD_MARKER f] = f.
Proof.
  intros H. pose proof flags_all as F. rewrite forallb_forall in F. apply N.eqb_eq, F.
  apply in_map_iff. exists (N.to_nat f). split; [apply N2Nat.id|]. apply in_seq. unfold BITFIELD_MARKER in H. lia.
Qed.

(* a flag byte with the high bit set does not survive: the property fails there *)
Lemma flags_bit7_lost : flags_parse_bytes [LEGACY_V2_BYTE; N.lor BITFIELD_MARKER 128] = 0.
Proof. reflexivity. Qed.

Lemma wf_filterb_cases f : wf_filterb f = true -> f = default_filter \/ wf_filter f.
Proof.
  unfold wf_filterb. destruct (f_entries f =? 0) eqn:E0; intros H;
    repeat (apply andb_true_iff in H; destruct H as [H ?]).
  - left. destruct f as [e b p bits]; cbn [f_entries f_bpe f_probes f_bits] in *.
    destruct bits; [|discriminate]. unfold default_filter. f_equal; lia.
  - right. unfold wf_filter. repeat split; try lia.
    intros Hne. destruct (f_bits f); [congruence|]. cbn [nil_b orb] in *. lia.
Qed.

Lemma wf_filterb_roundtrip f : wf_filterb f = true -> parse (to_bytes f) = Ok (f, []).
Proof. intros H. apply wf_filterb_cases in H as [->|H]; [reflexivity|apply parse_to_bytes, H]. Qed.

Lemma to_bytes_len f : wf_filterb f = true -> lenN (to_bytes f) < pow64.
Proof.
  intros H. apply wf_filterb_cases in H as [->|(H0 & He & Hb & _ & Hlen & _)]; [reflexivity|].
  unfold to_bytes. assert ((f_entries f =? 0) = false) as -> by lia.
  rewrite !lenN_app, Hlen. clear Hlen.
  pose proof (uenc_length 10 (f_entries f)). pose proof (uenc_length 10 (f_bpe f)).
  pose proof (uenc_length 10 (f_probes f)). unfold uleb_enc, lenN in *.
  assert (f_entries f * f_bpe f <= u32_max * u32_max) by (apply N.mul_le_mono; lia).
  unfold bits_capacity, u32_max, pow64 in *. lia.
Qed.

Definition have_bytes (h : have) : bytes :=
  hashes_bytes (h_last_sync h) ++ uleb_enc (lenN (to_bytes (h_bloom h))) ++ to_bytes (h_bloom h).

Lemma wf_haveb_parts h : wf_haveb h = true -> wf_hashesb (h_last_sync h) = true /\ wf_filterb (h_bloom h) = true.
Proof. unfold wf_haveb. intros H. apply andb_true_iff in H. exact H. Qed.

Lemma encode_have_ok h : wf_haveb h = true -> encode_have h = Ok (have_bytes h).
Proof.
  intros H. apply wf_haveb_parts in H. destruct H as [H _]. apply wf_hashesb_parts in H.
  destruct H as (_ & _ & Hs). unfold encode_have. rewrite encode_hashes_ok by assumption. reflexivity.
Qed.

Lemma encode_haves_ok hs : forallb wf_haveb hs = true ->
  encode_haves hs = Ok (concat (map have_bytes hs)).
Proof.
  induction hs as [|h t IH]; intros H; [reflexivity|].
  cbn [forallb] in H. apply andb_true_iff in H. destruct H as [Hh Ht].
  cbn [encode_haves]. rewrite encode_have_ok by assumption. cbn [bind].
  rewrite IH by assumption. reflexivity.
Qed.

Lemma parse_have_app h r : wf_haveb h = true -> parse_have (have_bytes h ++ r) = Ok (h, r).
Proof.
  intros H. apply wf_haveb_parts in H. destruct H as [Hs Hf].
  unfold parse_have, have_bytes. rewrite <- app_assoc.
  rewrite parse_hashes_app by assumption. cbn [bind].
  rewrite <- app_assoc. rewrite lpb_app by (apply to_bytes_len, Hf). cbn [bind].
  rewrite wf_filterb_roundtrip by assumption. cbn [bind]. destruct h; reflexivity.
Qed.

Lemma have_bytes_nonempty h : have_bytes h <> [].
Proof.
  unfold have_bytes, hashes_bytes. intros H. apply app_eq_nil in H. destruct H as [H _].
  apply app_eq_nil in H. destruct H as [H _]. exact (uleb_enc_nonempty _ H).
Qed.

Lemma parse_have_no_panic i : parse_have i <> Panic.
Proof.
  apply bind_no_panic; [apply parse_hashes_no_panic|]. intros [ls i1] _.
  apply bind_no_panic; [apply lpb_no_panic|]. intros [bb i2] _.
  apply bind_no_panic; [apply bloom_parse_no_panic|]. intros [f x] _. discriminate.
Qed.

Definition change_bytes (c : bytes) : bytes := uleb_enc (lenN c) ++ c.

Lemma encode_changes_concat cs : encode_changes cs = concat (map change_bytes cs).
Proof.
  induction cs as [|c t IH]; [reflexivity|]. cbn [encode_changes map concat]. unfold change_bytes.
  rewrite IH, <- app_assoc. reflexivity.
Qed.

Lemma wf_messageb_parts m : wf_messageb m = true ->
  wf_hashesb (m_heads m) = true /\ wf_hashesb (m_need m) = true /\ forallb wf_haveb (m_have m) = true /\
  lenN (m_have m) < pow64 /\ lenN (m_changes m) < pow64 /\
  (forall c, In c (m_changes m) -> lenN c < pow64) /\
  match m_flags m with Some f => f < BITFIELD_MARKER | None => True end.
Proof.
  unfold wf_messageb. rewrite !andb_true_iff. intros [[[[[[A1 A2] A3] A4] A5] A6] A7].
  split; [exact A1|]. split; [exact A2|]. split; [exact A3|].
  split; [lia|]. split; [lia|]. split.
  - intros c Hc. rewrite forallb_forall in A6. specialize (A6 c Hc).
    apply andb_true_iff in A6. destruct A6 as [_ A6]. lia.
  - destruct (m_flags m); [lia|exact I].
Qed.

Lemma version_parse_byte v i : version_parse (version_byte v :: i) = Ok (v, i).
Proof. destruct v; reflexivity. Qed.

Theorem message_roundtrip m : wf_messageb m = true ->
  exists w, message_encode m = Ok w /\ message_decode w = Ok m.
Proof.
  intros Hwf. apply wf_messageb_parts in Hwf.
  destruct Hwf as (Hh & Hn & Hv & Lv & Lc & Lcs & Hf).
  pose proof (wf_hashesb_parts _ Hh) as (_ & _ & Sh). pose proof (wf_hashesb_parts _ Hn) as (_ & _ & Sn).
  unfold message_encode. rewrite (encode_hashes_ok _ Sh), (encode_hashes_ok _ Sn). cbn [bind].
  rewrite (encode_haves_ok _ Hv). cbn [bind]. eexists. split; [reflexivity|].
  unfold message_decode, message_parse. rewrite version_parse_byte. cbn [bind].
  rewrite <- !app_assoc.
  rewrite parse_hashes_app by assumption. cbn [bind].
  rewrite parse_hashes_app by assumption. cbn [bind].
  rewrite length_prefixed_enc; [|exact Lv| |].
  2:{ intros h r Hin. apply parse_have_app. rewrite forallb_forall in Hv. apply Hv, Hin. }
  2:{ intros h _. apply have_bytes_nonempty. }
  cbn [bind]. rewrite encode_changes_concat.
  rewrite length_prefixed_enc; [|exact Lc| |].
  2:{ intros c r Hin. unfold change_bytes. rewrite <- app_assoc. apply lpb_app, Lcs, Hin. }
  2:{ intros c _ Hc. unfold change_bytes in Hc. apply app_eq_nil in Hc. destruct Hc as [Hc _]. exact (uleb_enc_nonempty _ Hc). }
  cbn [bind].
  destruct m as [heads need hv cs fl v]; cbn [m_flags m_heads m_need m_have m_changes m_version] in *.
  destruct fl as [f|].
  - change (flags_encode f)
      with (uleb_enc (lenN [LEGACY_V2_BYTE; N.lor BITFIELD_MARKER f]) ++ [LEGACY_V2_BYTE; N.lor BITFIELD_MARKER f] ++ []).
    rewrite lpb_app by (vm_compute; reflexivity). cbn [bind].
    rewrite flags_value by assumption. reflexivity.
  - reflexivity.
Qed.

Lemma message_parse_no_panic i : message_parse i <> Panic.
Proof.
  apply bind_no_panic.
  { unfold version_parse. destruct i as [|b i]; [discriminate|].
    destruct (b =? MESSAGE_TYPE_SYNC); [discriminate|]. destruct (b =? MESSAGE_TYPE_SYNC_V2); discriminate. }
  intros [v i1] _. apply bind_no_panic; [apply parse_hashes_no_panic|]. intros [hd i2] _.
  apply bind_no_panic; [apply parse_hashes_no_panic|]. intros [nd i3] _.
  apply bind_no_panic; [apply length_prefixed_no_panic, parse_have_no_panic|]. intros [hv i4] _.
  apply bind_no_panic; [apply length_prefixed_no_panic, lpb_no_panic|]. intros [cs i5] _.
  apply bind_no_panic; [|intros [fl i6] _; discriminate].
  destruct i5 as [|b i5]; [discriminate|].
  apply bind_no_panic; [apply lpb_no_panic|]. intros [raw i6] _. discriminate.
Qed.

Lemma message_decode_no_panic i : message_decode i <> Panic.
Proof.
  apply bind_no_panic; [apply message_parse_no_panic|]. intros [m r] _. discriminate.
Qed.

Theorem state_roundtrip s : wf_hashesb (s_shared_heads s) = true ->
  exists w, state_encode s = Ok w /\ state_decode w = Ok (state_persisted (s_shared_heads s)).
Proof.
  intros H. pose proof (wf_hashesb_parts _ H) as (_ & _ & Hs).
  unfold state_encode. rewrite (encode_hashes_ok _ Hs). cbn [bind]. eexists. split; [reflexivity|].
  cbn [state_decode]. rewrite N.eqb_refl. cbn [negb].
  rewrite <- (app_nil_r (hashes_bytes (s_shared_heads s))).
  rewrite parse_hashes_app by assumption. reflexivity.
Qed.

Lemma state_decode_no_panic i : state_decode i <> Panic.
Proof.
  unfold state_decode. destruct i as [|b i]; [discriminate|].
  destruct (negb (b =? SYNC_STATE_TYPE)); [discriminate|].
  apply bind_no_panic; [apply parse_hashes_no_panic|]. intros [hs r] _. discriminate.
Qed.

(* unsorted hashes: the encoder's debug assertion *)
Lemma encode_hashes_unsorted hs : hashes_sortedb hs = false -> encode_hashes hs = Panic.
Proof. intros H. unfold encode_hashes. rewrite H. reflexivity. Qed.

Definition msg_bit7 : message := mkMsg [] [] [] [] (Some 128) V1.
Definition msg_bloom0 : message := mkMsg [] [] [mkHave [] (mkFilter 0 5 3 [])] [] None V1.

Lemma message_flag_bit7_refuted :
  exists m w, m_flags m = Some 128 /\ message_encode m = Ok w /\
              message_decode w = Ok (mkMsg (m_heads m) (m_need m) (m_have m) (m_changes m) (Some 0) (m_version m)).
Proof. exists msg_bit7, [66; 0; 0; 0; 0; 2; 2; 128]. split; [reflexivity|]. split; vm_compute; reflexivity. Qed.

Lemma message_bloom_zero_refuted :
  exists m w, parse [0; 5; 3] = Ok (mkFilter 0 5 3 [], []) /\ m_have m = [mkHave [] (mkFilter 0 5 3 [])] /\
              message_encode m = Ok w /\
              message_decode w = Ok (mkMsg [] [] [mkHave [] default_filter] [] None V1).
Proof. exists msg_bloom0, [66; 0; 0; 1; 0; 0; 0]. split; [vm_compute; reflexivity|]. split; [reflexivity|]. split; vm_compute; reflexivity. Qed.
