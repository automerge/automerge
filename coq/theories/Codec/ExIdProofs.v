(* Codec/ExIdProofs.v — object ids: byte and text round trips, decoders never panic, resolution
   is independent of the actor-index hint and of the replica's numbering of actors. *)
From AM Require Import Base.Prelude Base.ListFacts Base.Leb128 Base.Order Gen.Consts Codec.Bloom Codec.BloomProofs
  Codec.Hex Codec.HexProofs Codec.ExId.
Local Open Scope N_scope.

(* the tests on the generated tags are closed: they evaluate *)
Lemma exid_bytes_roundtrip_rest e rest :
  wf_exidb e = true -> exid_of_bytes (exid_to_bytes e ++ rest) = Ok e.
Proof.
  destruct e as [|c a h]; intros Hwf; [reflexivity|].
  cbn [wf_exidb] in Hwf. repeat (apply andb_true_iff in Hwf; destruct Hwf as [Hwf ?]).
  cbn [exid_to_bytes app]. unfold exid_of_bytes.
  change (N.land (exid_tag EXID_TYPE_ID) 15 =? EXID_VERSION_TAG) with true.
  change (N.shiftr (exid_tag EXID_TYPE_ID) 4) with EXID_TYPE_ID.
  change (EXID_TYPE_ID =? EXID_TYPE_ROOT) with false. change (EXID_TYPE_ID =? EXID_TYPE_ID) with true.
  cbn [negb]. rewrite <- !app_assoc.
  rewrite uleb_roundtrip by lia. cbn [bind].
  rewrite take_N_app.
  rewrite uleb_roundtrip by lia. cbn [bind].
  rewrite uleb_roundtrip by lia. reflexivity.
Qed.

Theorem exid_bytes_roundtrip e : wf_exidb e = true -> exid_of_bytes (exid_to_bytes e) = Ok e.
Proof. intros H. rewrite <- (app_nil_r (exid_to_bytes e)). apply exid_bytes_roundtrip_rest, H. Qed.

Lemma exid_of_bytes_no_panic l : exid_of_bytes l <> Panic.
Proof.
  unfold exid_of_bytes. destruct l as [|tag i]; [discriminate|].
  destruct (negb (N.land tag 15 =? EXID_VERSION_TAG)); [discriminate|].
  destruct (N.shiftr tag 4 =? EXID_TYPE_ROOT); [discriminate|].
  destruct (N.shiftr tag 4 =? EXID_TYPE_ID); [|discriminate].
  apply bind_no_panic; [apply uleb_dec_no_panic|]. intros [len i1] _.
  destruct (take_N len i1) as [[a i2]|]; [|discriminate].
  apply bind_no_panic; [apply uleb_dec_no_panic|]. intros [h i3] _.
  apply bind_no_panic; [apply uleb_dec_no_panic|]. intros [c i4] _. discriminate.
Qed.

Lemma find_actor_nth t a : forall i, find_actor t a = Some i -> nth_error t i = Some a.
Proof.
  induction t as [|x r IH]; intros i H; cbn [find_actor] in H; [discriminate|].
  destruct (bytes_eqb x a) eqn:E.
  - inversion H; subst. apply bytes_eqb_spec in E. subst. reflexivity.
  - destruct (find_actor r a) as [j|] eqn:F; [|discriminate]. inversion H; subst.
    cbn [nth_error]. apply IH. reflexivity.
Qed.

Lemma find_actor_in t a : In a t -> exists i, find_actor t a = Some i.
Proof.
  induction t as [|x r IH]; intros H; [destruct H|]. cbn [find_actor].
  destruct (bytes_eqb x a) eqn:E; [eexists; reflexivity|].
  destruct H as [H|H]; [subst; rewrite (proj2 (bytes_eqb_spec a a) eq_refl) in E; discriminate|].
  destruct (IH H) as [i Hi]. rewrite Hi. eexists; reflexivity.
Qed.

Lemma find_actor_none t a : find_actor t a = None -> ~ In a t.
Proof.
  intros H Hin. destruct (find_actor_in t a Hin) as [i Hi]. congruence.
Qed.

Lemma get_actor_safe_some t h a :
  get_actor_safe t h = Some a -> h < lenN t /\ nth_error t (N.to_nat h) = Some a.
Proof.
  unfold get_actor_safe. destruct (lenN t <=? h) eqn:E; [discriminate|]. intros H. split; [lia|exact H].
Qed.

Lemma get_actor_safe_nat t i : get_actor_safe t (N.of_nat i) = nth_error t i.
Proof.
  unfold get_actor_safe. rewrite Nat2N.id. destruct (lenN t <=? N.of_nat i) eqn:E; [|reflexivity].
  symmetry. apply nth_error_None. unfold lenN in E. lia.
Qed.

Lemma hint_ok t h a :
  option_eqb bytes_eqb (get_actor_safe t h) (Some a) = true ->
  h < lenN t /\ nth_error t (N.to_nat h) = Some a.
Proof. intros H. apply (option_eqb_spec _ bytes_eqb_spec), get_actor_safe_some in H. exact H. Qed.

Lemma opid_new_ok c i : c <= u32_max -> i < pow32 -> opid_new c i = Ok (c, i).
Proof.
  intros Hc Hi. unfold opid_new.
  assert ((u32_max <? c) || (u32_max <? i) = false) as -> by (unfold pow32, u32_max in *; lia). reflexivity.
Qed.

Lemma sorted_lt_all : forall t x, sorted_table (x :: t) = true -> Forall (fun y => bytes_cmp x y = Lt) t.
Proof.
  induction t as [|y r IH]; intros x H; [constructor|].
  cbn [sorted_table] in H. apply andb_true_iff in H. destruct H as [Hxy Hs].
  assert (Lxy : bytes_cmp x y = Lt) by (unfold ltb in Hxy; destruct (bytes_cmp x y); congruence).
  constructor; [exact Lxy|].
  specialize (IH y Hs). eapply Forall_impl; [|exact IH].
  intros z Hz. exact (cmp_trans bytes_cmp_total _ _ _ Lxy Hz).
Qed.

Lemma sorted_table_tail x t : sorted_table (x :: t) = true -> sorted_table t = true.
Proof.
  cbn [sorted_table]. destruct t as [|y r]; [reflexivity|]. intros H. apply andb_true_iff in H. apply H.
Qed.

Lemma sorted_table_nodup t : sorted_table t = true -> NoDup t.
Proof.
  induction t as [|x r IH]; intros H; [constructor|].
  constructor; [|apply IH; eapply sorted_table_tail; exact H].
  intros Hin. pose proof (sorted_lt_all r x H) as F. rewrite Forall_forall in F.
  specialize (F x Hin). rewrite (cmp_refl _ bytes_cmp_total) in F. discriminate.
Qed.

(* cursors carry no hint: resolution is by actor only.  On a table whose indices fit a u32,
   [OpId::new] cannot overflow on an index that [lookup_actor] returns *)
Lemma cursor_to_opid_eq t c a : lenN t <= pow32 ->
  cursor_to_opid t c a =
    if u32_max <? c then Err
    else match find_actor t a with Some i => Ok (c, N.of_nat i) | None => Err end.
Proof.
  intros Hlen. unfold cursor_to_opid, lookup_actor. destruct (u32_max <? c) eqn:Ec; [reflexivity|].
  destruct (find_actor t a) as [i|] eqn:Hi; [|reflexivity].
  assert (i < length t)%nat by (apply nth_error_Some; rewrite (find_actor_nth _ _ _ Hi); discriminate).
  apply opid_new_ok; unfold lenN in *; lia.
Qed.

Theorem cursor_resolve_denotes t c a :
  c <= u32_max -> lenN t <= pow32 -> In a t ->
  exists o, cursor_to_opid t c a = Ok o /\ denote t o = Some (c, a).
Proof.
  intros Hc Hlen Hin. rewrite cursor_to_opid_eq by exact Hlen.
  assert ((u32_max <? c) = false) as -> by lia.
  destruct (find_actor_in t a Hin) as [i Hi]. rewrite Hi. eexists. split; [reflexivity|].
  unfold denote. cbn [fst snd]. rewrite get_actor_safe_nat, (find_actor_nth _ _ _ Hi). reflexivity.
Qed.

Lemma cursor_to_opid_no_panic t c a : lenN t <= pow32 -> cursor_to_opid t c a <> Panic.
Proof.
  intros Hlen. rewrite cursor_to_opid_eq by exact Hlen.
  destruct (u32_max <? c); [discriminate|]. destruct (find_actor t a); discriminate.
Qed.

(* the hint of an id is trusted if it names the actor; otherwise the id resolves like a cursor.
   A trusted hint is an index of the table, so [OpId::new] cannot overflow on it either *)
Lemma exid_to_opid_eq t c a h : lenN t <= pow32 ->
  exid_to_opid t (EId c a h) =
    if u32_max <? c then Err
    else if option_eqb bytes_eqb (get_actor_safe t h) (Some a) then Ok (c, h)
    else cursor_to_opid t c a.
Proof.
  intros Hlen. cbn [exid_to_opid]. unfold cursor_to_opid. destruct (u32_max <? c) eqn:Ec; [reflexivity|].
  destruct (option_eqb bytes_eqb (get_actor_safe t h) (Some a)) eqn:Eh; [|reflexivity].
  apply hint_ok in Eh as [Hh _]. apply opid_new_ok; lia.
Qed.

(* under the table invariant the result is a function of (counter, actor) only *)
Lemma resolve_canonical t c a h :
  NoDup t -> lenN t <= pow32 ->
  exid_to_opid t (EId c a h) =
    if u32_max <? c then Err
    else match find_actor t a with Some i => Ok (c, N.of_nat i) | None => Err end.
Proof.
  intros Hnd Hlen. rewrite exid_to_opid_eq, cursor_to_opid_eq by exact Hlen.
  destruct (u32_max <? c); [reflexivity|].
  destruct (option_eqb bytes_eqb (get_actor_safe t h) (Some a)) eqn:Eh; [|reflexivity].
  apply hint_ok in Eh as [_ Hn].
  destruct (find_actor_in t a) as [i Hi]; [eapply nth_error_In; exact Hn|].
  rewrite Hi. pose proof (find_actor_nth _ _ _ Hi) as Hni.
  assert (i = N.to_nat h) as ->.
  { apply (proj1 (NoDup_nth_error t) Hnd); [apply nth_error_Some|]; congruence. }
  rewrite N2Nat.id. reflexivity.
Qed.

Theorem resolve_hint_irrelevant t c a h1 h2 :
  NoDup t -> lenN t <= pow32 ->
  exid_to_opid t (EId c a h1) = exid_to_opid t (EId c a h2).
Proof. intros Hnd Hlen. rewrite !resolve_canonical by assumption. reflexivity. Qed.

(* whatever the hint and whatever the table looks like: an id whose actor the replica knows
   resolves, and to an internal id that denotes the same (counter, actor) *)
Theorem resolve_denotes t c a h :
  c <= u32_max -> lenN t <= pow32 -> In a t ->
  exists o, exid_to_opid t (EId c a h) = Ok o /\ denote t o = Some (c, a).
Proof.
  intros Hc Hlen Hin. rewrite exid_to_opid_eq by exact Hlen.
  assert ((u32_max <? c) = false) as -> by lia.
  destruct (option_eqb bytes_eqb (get_actor_safe t h) (Some a)) eqn:Eh;
    [|apply cursor_resolve_denotes; assumption].
  apply (option_eqb_spec _ bytes_eqb_spec) in Eh.
  exists (c, h). split; [reflexivity|]. unfold denote. cbn [fst snd]. rewrite Eh. reflexivity.
Qed.

Theorem resolve_unknown_actor t c a h : ~ In a t -> exid_to_opid t (EId c a h) = Err.
Proof.
  intros Hn. cbn [exid_to_opid]. destruct (u32_max <? c); [reflexivity|].
  destruct (option_eqb bytes_eqb (get_actor_safe t h) (Some a)) eqn:Eh.
  - apply hint_ok in Eh as [_ Hnth]. destruct Hn. eapply nth_error_In; exact Hnth.
  - unfold lookup_actor. destruct (find_actor t a) as [i|] eqn:Hi; [|reflexivity].
    destruct Hn. eapply nth_error_In, find_actor_nth, Hi.
Qed.

Lemma exid_to_opid_no_panic t e : lenN t <= pow32 -> exid_to_opid t e <> Panic.
Proof.
  intros Hlen. destruct e as [|c a h]; [cbn; discriminate|]. rewrite exid_to_opid_eq by exact Hlen.
  destruct (u32_max <? c); [discriminate|].
  destruct (option_eqb bytes_eqb (get_actor_safe t h) (Some a)); [discriminate|].
  apply cursor_to_opid_no_panic, Hlen.
Qed.

(* an id handed out by one replica, serialised, decoded, resolved by another *)
Theorem exid_transport tp tq c i a :
  get_actor_safe tp i = Some a -> negb ((c =? 0) && (i =? 0)) = true ->
  c <= u32_max -> wf_bytesb a = true -> lenN a < pow64 ->
  lenN tp <= pow32 -> lenN tq <= pow32 -> In a tq ->
  exists e o, id_to_exid tp (c, i) = Ok e /\ exid_of_bytes (exid_to_bytes e) = Ok e /\
              exid_to_opid tq e = Ok o /\ denote tq o = denote tp (c, i).
Proof.
  intros Hga Hnz Hc Hwa Hla Lp Lq Hin.
  pose proof (get_actor_safe_some _ _ _ Hga) as [Hi _].
  destruct (resolve_denotes tq c a i Hc Lq Hin) as (o & Ro & Do).
  exists (EId c a i), o. split; [|split; [|split]].
  - unfold id_to_exid. cbn [fst snd]. apply negb_true_iff in Hnz. rewrite Hnz, Hga. reflexivity.
  - apply exid_bytes_roundtrip. cbn [wf_exidb].
    rewrite Hwa, !(proj2 (N.ltb_lt _ _)) by (unfold u32_max, pow32, pow64 in *; lia). reflexivity.
  - exact Ro.
  - rewrite Do. unfold denote. cbn [fst snd]. rewrite Hga. reflexivity.
Qed.

Theorem exid_str_roundtrip t c a h i :
  c < pow64 -> wf_bytesb a = true -> find_actor t a = Some i ->
  import_obj t (exid_to_str (EId c a h)) = Ok (EId c a (N.of_nat i)).
Proof.
  intros Hc Hwa Hi. cbn [exid_to_str]. unfold import_obj.
  assert (str_eqb (dec_encode c ++ CH_AT :: hex_encode a) STR_ROOT = false) as ->.
  { destruct (dec_encode_head c) as (d & r & -> & _ & Hd). unfold str_eqb, STR_ROOT. cbn [app list_eqb].
    assert ((d =? 95) = false) as -> by lia. reflexivity. }
  rewrite id_text_parse by (assumption || apply wf_bytesb_spec, Hwa).
  unfold lookup_actor. rewrite Hi. rewrite (find_actor_nth _ _ _ Hi). reflexivity.
Qed.

Lemma import_obj_no_panic t s : import_obj t s <> Panic.
Proof.
  unfold import_obj. destruct (str_eqb s STR_ROOT); [discriminate|].
  destruct (split_on CH_AT s) as [[a b]|]; [|discriminate].
  apply bind_no_panic; [apply parse_u64_no_panic|]. intros c _.
  apply bind_no_panic; [apply hex_decode_no_panic|]. intros actor _.
  unfold lookup_actor. destruct (find_actor t actor) as [i|] eqn:Hi; [|discriminate].
  rewrite (find_actor_nth _ _ _ Hi). discriminate.
Qed.
