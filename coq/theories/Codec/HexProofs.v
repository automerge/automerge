(* Codec/HexProofs.v — round trips and totality of the text forms in Codec/Hex.v. *)
From AM Require Import Base.Prelude Gen.Consts Codec.Hex.
Local Open Scope N_scope.
Lemma hex_val_digit n : n < 16 -> hex_val (hex_digit n) = Some n.
Proof.
  intros H. unfold hex_digit, hex_val.
  destruct (n <? 10) eqn:E.
  - assert ((65 <=? 48 + n) && (48 + n <=? 70) = false) as -> by lia.
    assert ((97 <=? 48 + n) && (48 + n <=? 102) = false) as -> by lia.
    assert ((48 <=? 48 + n) && (48 + n <=? 57) = true) as -> by lia.
    f_equal. lia.
  - assert ((65 <=? 87 + n) && (87 + n <=? 70) = false) as -> by lia.
    assert ((97 <=? 87 + n) && (87 + n <=? 102) = true) as -> by lia.
    f_equal. lia.
Qed.

Lemma hex_pairs_encode b : wf_bytes b -> hex_pairs (hex_encode b) = Ok b.
Proof.
  induction b as [|x t IH]; intros Hwf; [reflexivity|].
  inversion Hwf as [|? ? Hx Ht]; subst. unfold wf_byte in Hx.
  cbn [hex_encode hex_pairs].
  rewrite !hex_val_digit by lia. rewrite IH by assumption. cbn [bind].
  f_equal. f_equal. lia.
Qed.

Lemma hex_encode_length b : length (hex_encode b) = (2 * length b)%nat.
Proof. induction b as [|x t IH]; cbn [hex_encode length]; lia. Qed.

Theorem hex_roundtrip b : wf_bytes b -> hex_decode (hex_encode b) = Ok b.
Proof.
  intros H. unfold hex_decode. rewrite hex_encode_length, <- Nat.negb_even, Nat.even_mul. apply hex_pairs_encode, H.
Qed.

Lemma hex_pairs_even_no_panic : forall n s, length s = (2 * n)%nat -> hex_pairs s <> Panic.
Proof.
  induction n as [|n IH]; intros s Hl.
  - destruct s; [cbn; discriminate|cbn in Hl; lia].
  - destruct s as [|a [|b t]]; cbn [length] in Hl; try lia.
    cbn [hex_pairs]. destruct (hex_val a); [|discriminate]. destruct (hex_val b); [|discriminate].
    specialize (IH t ltac:(lia)). destruct (hex_pairs t); cbn [bind]; congruence.
Qed.

Lemma hex_decode_no_panic s : hex_decode s <> Panic.
Proof.
  unfold hex_decode. destruct (Nat.odd (length s)) eqn:E; [discriminate|].
  assert (Nat.even (length s) = true) as Hev by (rewrite <- Nat.negb_odd, E; reflexivity).
  apply Nat.even_spec in Hev. destruct Hev as [k Hk].
  apply (hex_pairs_even_no_panic k). exact Hk.
Qed.

Lemma hex_val_lt c v : hex_val c = Some v -> v < 16.
Proof.
  unfold hex_val.
  destruct ((65 <=? c) && (c <=? 70)) eqn:E1; [intros H; inversion H; lia|].
  destruct ((97 <=? c) && (c <=? 102)) eqn:E2; [intros H; inversion H; lia|].
  destruct ((48 <=? c) && (c <=? 57)) eqn:E3; [intros H; inversion H; lia|discriminate].
Qed.

Lemma hex_pairs_wf b : forall s, hex_pairs s = Ok b -> wf_bytes b.
Proof.
  induction b as [|v r IH]; intros s H; [constructor|].
  destruct s as [|x [|y t]]; cbn [hex_pairs] in H; [discriminate|destruct (hex_val x); discriminate|].
  destruct (hex_val x) as [vx|] eqn:Ex; [|discriminate].
  destruct (hex_val y) as [vy|] eqn:Ey; [|discriminate].
  apply bind_ok in H as (r' & Et & [= <- <-]). constructor; [|exact (IH t Et)].
  apply hex_val_lt in Ex, Ey. unfold wf_byte. lia.
Qed.

Lemma hex_decode_wf s b : hex_decode s = Ok b -> wf_bytes b.
Proof. unfold hex_decode. destruct (Nat.odd (length s)); [discriminate|apply hex_pairs_wf]. Qed.

Theorem actor_hex_roundtrip a : wf_bytesb a = true -> actor_of_str (actor_to_str a) = Ok a.
Proof. intros H. apply hex_roundtrip. apply wf_bytesb_spec, H. Qed.

Lemma actor_of_str_no_panic s : actor_of_str s <> Panic.
Proof. apply hex_decode_no_panic. Qed.

Theorem hash_hex_roundtrip h : wf_hashb h = true -> hash_of_str (hash_to_str h) = Ok h.
Proof.
  unfold wf_hashb. intros H. apply andb_true_iff in H. destruct H as [Hl Hw].
  unfold hash_of_str, hash_to_str. rewrite hex_roundtrip by (apply wf_bytesb_spec, Hw).
  cbn [bind]. rewrite Hl. reflexivity.
Qed.

Lemma hash_of_str_no_panic s : hash_of_str s <> Panic.
Proof.
  apply bind_no_panic; [apply hex_decode_no_panic|]. intros a _.
  destruct (N.of_nat (length a) =? HASH_SIZE); discriminate.
Qed.

Lemma hash_of_str_len s h : hash_of_str s = Ok h -> wf_hashb h = true.
Proof.
  intros H. apply bind_ok in H as (b & E & H).
  destruct (N.of_nat (length b) =? HASH_SIZE) eqn:El; [|discriminate]. inversion H; subst. unfold wf_hashb. rewrite El. cbn [andb].
  apply wf_bytesb_spec. eapply hex_decode_wf; eauto.
Qed.

Theorem hash_slice_roundtrip h : wf_hashb h = true -> hash_of_slice h = Ok h.
Proof.
  unfold wf_hashb, hash_of_slice. intros H. apply andb_true_iff in H. destruct H as [-> _]. reflexivity.
Qed.

Lemma pdigits_app s1 : forall acc s2,
  pdigits acc (s1 ++ s2) = (let* a := pdigits acc s1 in pdigits a s2).
Proof.
  induction s1 as [|c t IH]; intros acc s2; [reflexivity|].
  cbn [app pdigits]. destruct ((48 <=? c) && (c <=? 57)); [|reflexivity].
  destruct (u64_max <? acc * 10 + (c - 48)); [reflexivity|]. apply IH.
Qed.

Lemma pdigits_no_panic s : forall acc, pdigits acc s <> Panic.
Proof.
  induction s as [|c t IH]; intros acc; cbn [pdigits]; [discriminate|].
  destruct ((48 <=? c) && (c <=? 57)); [|discriminate].
  destruct (u64_max <? acc * 10 + (c - 48)); [discriminate|]. apply IH.
Qed.

Lemma parse_u64_no_panic s : parse_u64 s <> Panic.
Proof.
  unfold parse_u64. destruct s as [|c [|d t]]; [discriminate| |].
  - destruct ((c =? 43) || (c =? 45)); [discriminate|apply pdigits_no_panic].
  - destruct (c =? 43); apply pdigits_no_panic.
Qed.

Lemma pdigits_digit acc d : d < 10 -> acc * 10 + d <= u64_max -> pdigits acc [48 + d] = Ok (acc * 10 + d).
Proof.
  intros Hd Hmax. cbn [pdigits].
  assert ((48 <=? 48 + d) && (48 + d <=? 57) = true) as -> by lia.
  assert ((u64_max <? acc * 10 + (48 + d - 48)) = false) as -> by lia.
  f_equal. lia.
Qed.

Fixpoint pow10 (f : nat) : N := match f with O => 1 | S f' => 10 * pow10 f' end.

Lemma dec_rev_parse f : forall n, n < pow10 f -> n <= u64_max ->
  pdigits 0 (map (fun d => 48 + d) (rev (dec_rev f n))) = Ok n.
Proof.
  induction f as [|f IH]; intros n Hn Hmax;
    [cbn in Hn; assert (n = 0) as -> by lia; reflexivity|].
  cbn [dec_rev pow10] in *. destruct (n <? 10) eqn:E; cbn [rev app map].
  - apply pdigits_digit; lia.
  - rewrite map_app, pdigits_app, IH by lia. cbn [bind map].
    rewrite pdigits_digit by lia. f_equal. lia.
Qed.

Definition is_digit (c : N) : Prop := 48 <= c /\ c <= 57.

Lemma dec_rev_digits f : forall n, Forall (fun d => d < 10) (dec_rev f n).
Proof.
  induction f as [|f IH]; intros n; cbn [dec_rev]; [constructor|].
  destruct (n <? 10) eqn:E.
  - constructor; [lia|constructor].
  - constructor; [lia|apply IH].
Qed.

Lemma dec_encode_digits n : Forall is_digit (dec_encode n).
Proof.
  unfold dec_encode. apply Forall_map, Forall_rev.
  eapply Forall_impl; [|apply dec_rev_digits]. unfold is_digit. intros d Hd. lia.
Qed.

Lemma dec_encode_nonempty n : dec_encode n <> [].
Proof.
  unfold dec_encode. cbn [dec_rev]. destruct (n <? 10); cbn [rev map app].
  - discriminate.
  - intros H. apply map_eq_nil in H. apply app_eq_nil in H. destruct H as [_ H]. discriminate.
Qed.

Lemma dec_encode_head n : exists c t, dec_encode n = c :: t /\ is_digit c.
Proof.
  pose proof (dec_encode_nonempty n) as Hne. pose proof (dec_encode_digits n) as F.
  destruct (dec_encode n) as [|c t]; [congruence|]. inversion F; subst. eauto.
Qed.

Lemma parse_u64_digits s : s <> [] -> Forall is_digit s -> parse_u64 s = pdigits 0 s.
Proof.
  intros Hne F. destruct s as [|c t]; [congruence|].
  inversion F as [|? ? Hc _]; subst. unfold is_digit in Hc. unfold parse_u64.
  destruct t as [|d t].
  - assert ((c =? 43) || (c =? 45) = false) as -> by lia. reflexivity.
  - assert ((c =? 43) = false) as -> by lia. reflexivity.
Qed.

Theorem dec_roundtrip n : n < pow64 -> parse_u64 (dec_encode n) = Ok n.
Proof.
  intros H. rewrite parse_u64_digits by (apply dec_encode_nonempty || apply dec_encode_digits).
  unfold dec_encode. apply (dec_rev_parse 20 n).
  - assert (pow64 <= pow10 20) by (vm_compute; discriminate). lia.
  - unfold pow64, u64_max in *. lia.
Qed.

Lemma split_on_app c a b : Forall (fun x => x <> c) a -> split_on c (a ++ c :: b) = Some (a, b).
Proof.
  induction a as [|x t IH]; intros F; cbn [app split_on].
  - rewrite N.eqb_refl. reflexivity.
  - inversion F as [|? ? Hx Ht]; subst.
    assert ((x =? c) = false) as -> by (apply N.eqb_neq; exact Hx).
    rewrite IH by assumption. reflexivity.
Qed.

(* the text "counter@actorhex" of object ids and cursors, read back the way [import_obj] and
   [cursor_op_of_str] read it *)
Lemma id_text_parse {B} (k : N -> bytes -> res B) c a :
  c < pow64 -> wf_bytes a ->
  match split_on CH_AT (dec_encode c ++ CH_AT :: hex_encode a) with
  | None => Err
  | Some (x, y) => let* c' := parse_u64 x in let* a' := hex_decode y in k c' a'
  end = k c a.
Proof.
  intros Hc Hwa. rewrite split_on_app.
  2:{ eapply Forall_impl; [|apply dec_encode_digits]. unfold is_digit, CH_AT. intros; lia. }
  rewrite dec_roundtrip by assumption. cbn [bind]. rewrite hex_roundtrip by assumption. reflexivity.
Qed.
