(* Codec/CursorProofs.v — cursors: byte and text round trips, decoders never panic. *)
From AM Require Import Base.Prelude Base.Leb128 Gen.Consts Codec.Bloom Codec.BloomProofs
  Codec.Hex Codec.HexProofs Codec.ExId Codec.ExIdProofs Codec.CursorCodec.
Local Open Scope N_scope.

Lemma start_is_start : (CURSOR_START_TAG =? CURSOR_START_TAG) = true. Proof. reflexivity. Qed.

(* the tests on the generated tags are closed: they evaluate *)
Lemma cursor_bytes_roundtrip_rest c rest :
  wf_cursorb c = true -> cursor_of_bytes (cursor_to_bytes c ++ rest) = Ok c.
Proof.
  destruct c as [| |ctr a m]; intros Hwf; [reflexivity..|].
  cbn [wf_cursorb] in Hwf. repeat (apply andb_true_iff in Hwf; destruct Hwf as [Hwf ?]).
  cbn [cursor_to_bytes app cursor_of_bytes N.eqb Pos.eqb negb
       CURSOR_VERSION_TAG CURSOR_START_TAG CURSOR_END_TAG CURSOR_OP_TAG].
  rewrite <- !app_assoc.
  rewrite uleb_roundtrip by lia. cbn [bind].
  rewrite take_N_app.
  rewrite uleb_roundtrip by lia. cbn [bind app].
  destruct m; reflexivity.
Qed.

Theorem cursor_bytes_roundtrip c : wf_cursorb c = true -> cursor_of_bytes (cursor_to_bytes c) = Ok c.
Proof. intros H. rewrite <- (app_nil_r (cursor_to_bytes c)). apply cursor_bytes_roundtrip_rest, H. Qed.

Lemma cursor_parse_0_no_panic i : cursor_parse_0 i <> Panic.
Proof.
  apply bind_no_panic; [apply uleb_dec_no_panic|]. intros [len i1] _.
  destruct (take_N len i1) as [[a i2]|]; [|discriminate].
  apply bind_no_panic; [apply uleb_dec_no_panic|]. intros [c i3] _. discriminate.
Qed.

Lemma cursor_of_bytes_no_panic l : cursor_of_bytes l <> Panic.
Proof.
  unfold cursor_of_bytes. destruct l as [|v i]; [discriminate|].
  destruct (v =? 0); [apply cursor_parse_0_no_panic|].
  destruct (negb (v =? CURSOR_VERSION_TAG)); [discriminate|].
  destruct i as [|ty i]; [discriminate|].
  destruct (ty =? CURSOR_START_TAG); [discriminate|].
  destruct (ty =? CURSOR_END_TAG); [discriminate|].
  destruct (ty =? CURSOR_OP_TAG); [|discriminate].
  apply bind_no_panic; [apply uleb_dec_no_panic|]. intros [len i1] _.
  destruct (take_N len i1) as [[a i2]|]; [|discriminate].
  apply bind_no_panic; [apply uleb_dec_no_panic|]. intros [c i3] _.
  destruct i3 as [|mt i3]; [discriminate|].
  destruct (mt =? CURSOR_MOVE_AFTER_TAG); [discriminate|].
  destruct (mt =? CURSOR_MOVE_BEFORE_TAG); discriminate.
Qed.

Lemma cursor_of_str_long s : length s <> 1%nat -> cursor_of_str s = cursor_op_of_str s.
Proof. destruct s as [|a [|b t]]; cbn [length]; intros H; [reflexivity|congruence|reflexivity]. Qed.

Theorem cursor_str_roundtrip c : wf_cursorb c = true -> cursor_of_str (cursor_to_str c) = Ok c.
Proof.
  destruct c as [| |ctr a m]; intros Hwf; [reflexivity|reflexivity|].
  cbn [wf_cursorb] in Hwf. repeat (apply andb_true_iff in Hwf; destruct Hwf as [Hwf ?]).
  assert (Hc : ctr < pow64) by lia.
  assert (Hwa : wf_bytes a) by (apply wf_bytesb_spec; assumption).
  (* what [cursor_op_of_str] does once the sign is stripped *)
  pose proof (id_text_parse (fun c a => Ok (COp c a m)) ctr a Hc Hwa) as B.
  cbn [cursor_to_str]. destruct (dec_encode_head ctr) as (d & r & E & Hd & _). rewrite E in *.
  rewrite cursor_of_str_long by (destruct m; cbn [app length]; rewrite app_length; cbn [length]; lia).
  unfold cursor_op_of_str. destruct m; cbn [app] in *.
  - exact B.
  - assert ((d =? CH_MINUS) = false) as -> by (unfold CH_MINUS; lia). exact B.
Qed.

Lemma cursor_op_of_str_no_panic s : cursor_op_of_str s <> Panic.
Proof.
  unfold cursor_op_of_str.
  destruct (match s with
            | [] => (MAfter, s)
            | c :: t => if c =? CH_MINUS then (MBefore, t) else (MAfter, s)
            end) as [m rest].
  destruct (split_on CH_AT rest) as [[a b]|]; [|discriminate].
  apply bind_no_panic; [apply parse_u64_no_panic|]. intros c _.
  apply bind_no_panic; [apply hex_decode_no_panic|]. intros actor _. discriminate.
Qed.

Lemma cursor_of_str_no_panic s : cursor_of_str s <> Panic.
Proof.
  destruct s as [|c [|d t]]; cbn [cursor_of_str]; try apply cursor_op_of_str_no_panic.
  destruct (c =? 115); [discriminate|]. destruct (c =? 101); discriminate.
Qed.

(* a cursor made by one replica for its element (c, i), sent as bytes or as text, decoded and
   resolved by a replica with another actor table that knows the actor, denotes the same op *)
Theorem cursor_transport tp tq c i a m :
  get_actor_safe tp i = Some a -> c <= u32_max -> wf_bytesb a = true -> lenN a < pow64 ->
  lenN tq <= pow32 -> In a tq ->
  exists cur o, cursor_new tp (c, i) m = Ok cur /\
                cursor_of_bytes (cursor_to_bytes cur) = Ok cur /\
                cursor_of_str (cursor_to_str cur) = Ok cur /\
                cursor_to_opid tq c a = Ok o /\ denote tq o = denote tp (c, i).
Proof.
  intros Hga Hc Hwa Hla Lq Hin.
  destruct (cursor_resolve_denotes tq c a Hc Lq Hin) as (o & Ro & Do).
  assert (Hwf : wf_cursorb (COp c a m) = true).
  { cbn [wf_cursorb]. rewrite Hwa, !(proj2 (N.ltb_lt _ _)) by (unfold u32_max, pow64 in *; lia). reflexivity. }
  exists (COp c a m), o. split; [|split; [|split; [|split]]].
  - unfold cursor_new. cbn [fst snd]. rewrite Hga. reflexivity.
  - apply cursor_bytes_roundtrip, Hwf.
  - apply cursor_str_roundtrip, Hwf.
  - exact Ro.
  - rewrite Do. unfold denote. cbn [fst snd]. rewrite Hga. reflexivity.
Qed.
