(* Codec/ColEncProofs.v — the legacy column readers of Codec/ColEnc.v: the `leb128`-crate readers
   accept what the strict readers accept, with the same value, hence the round trips; none of the
   integer, string and boolean readers panics; two inputs on which RleDecoder does. *)
From AM Require Import Base.Prelude Base.Leb128 Base.Sleb128 Base.Sleb128Proofs Codec.ColEnc.
Local Open Scope N_scope.

(* whatever the strict reader of storage/parse/leb128.rs accepts, the `leb128` crate reader accepts with the
   same value *)
Lemma udec_urd f : forall first l x, udec first f l = Ok x -> urd f l = Ok x.
Proof.
  induction f as [|f IH]; intros first l x H; [discriminate|].
  cbn [udec] in H. cbn [urd]. destruct l as [|b t]; [discriminate|].
  destruct (b <? 128) eqn:E.
  - destruct (Nat.eqb f 0 && (1 <? b)) eqn:E1; [discriminate|].
    destruct (negb first && (b =? 0)) eqn:E2; [discriminate|].
    assert (Nat.eqb f 0 && negb ((b =? 0) || (b =? 1)) = false) as ->.
    { destruct (Nat.eqb f 0); cbn in *; [|reflexivity]. lia. }
    exact H.
  - destruct (Nat.eqb f 0) eqn:Ef; [discriminate|]. cbn [andb].
    apply bind_ok in H as ([v r] & Ed & H). rewrite (IH _ _ _ Ed). exact H.
Qed.

Theorem u64_rd_roundtrip n rest : n < pow64 -> u64_rd (uleb_enc n ++ rest) = Ok (n, rest).
Proof. intros H. apply (udec_urd 10 true). apply uleb_roundtrip. exact H. Qed.

Lemma sdec_srd f : forall prev l x, sdec prev f l = Ok x -> srd f l = Ok x.
Proof.
  induction f as [|f IH]; intros prev l x H; [discriminate|].
  cbn [sdec] in H. cbn [srd]. destruct l as [|b t]; [discriminate|].
  destruct (b <? 128) eqn:E.
  - destruct (Nat.eqb f 0 && negb (b =? 0) && negb (b =? 127)) eqn:E1; [discriminate|].
    rewrite negb_orb, andb_assoc, E1.
    destruct prev as [p|].
    + destruct ((b =? 0) && negb (bit6 p) || (b =? 127) && bit6 p); [discriminate|exact H].
    + exact H.
  - destruct (Nat.eqb f 0) eqn:Ef; [discriminate|]. cbn [andb].
    apply bind_ok in H as ([v r] & Ed & H). rewrite (IH _ _ _ Ed). exact H.
Qed.

Theorem i64_rd_roundtrip z rest : in_i64 z -> i64_rd (sleb_enc z ++ rest) = Ok (z, rest).
Proof. intros H. apply (sdec_srd 10 None). apply sleb_roundtrip. exact H. Qed.

Lemma urd_cases f : forall l,
  match urd f l with Ok (_, r) => (length r < length l)%nat | Err => True | Panic => False end.
Proof.
  induction f as [|f IH]; intros l; cbn [urd]; [exact I|].
  destruct l as [|b t]; [exact I|].
  destruct (Nat.eqb f 0 && negb ((b =? 0) || (b =? 1))); [exact I|].
  destruct (b <? 128); [cbn [length]; lia|].
  specialize (IH t). destruct (urd f t) as [[v r]| |]; cbn [bind length]; [lia|exact I|exact IH].
Qed.

Lemma urd_no_panic f : forall l, urd f l <> Panic.
Proof. intros l H. pose proof (urd_cases f l) as C. rewrite H in C. exact C. Qed.
Lemma urd_shorter f : forall l v r, urd f l = Ok (v, r) -> (length r < length l)%nat.
Proof. intros l v r H. pose proof (urd_cases f l) as C. rewrite H in C. exact C. Qed.
Lemma u64_rd_no_panic l : u64_rd l <> Panic.
Proof. apply urd_no_panic. Qed.

Lemma srd_no_panic f : forall l, srd f l <> Panic.
Proof.
  induction f as [|f IH]; intros l; cbn [srd]; [discriminate|].
  destruct l as [|b t]; [discriminate|].
  destruct (Nat.eqb f 0 && negb ((b =? 0) || (b =? 127))); [discriminate|].
  destruct (b <? 128); [discriminate|].
  apply bind_no_panic; [apply IH|]. intros [v r] _. discriminate.
Qed.
Lemma i64_rd_no_panic l : i64_rd l <> Panic.
Proof. apply srd_no_panic. Qed.

Lemma vec_rd_no_panic l : vec_rd l <> Panic.
Proof.
  apply bind_no_panic; [apply u64_rd_no_panic|]. intros [n r] _.
  destruct (n =? 0); [discriminate|]. destruct (MAX_ALLOCATION <? n); [discriminate|].
  destruct (col_take n r) as [[a r']|]; discriminate.
Qed.
Lemma str_rd_no_panic utf8 l : str_rd utf8 l <> Panic.
Proof.
  apply bind_no_panic; [apply vec_rd_no_panic|]. intros [s r] _. destruct (utf8 s); discriminate.
Qed.

Lemma col_take_app {A} (a r : list A) : col_take (N.of_nat (length a)) (a ++ r) = Some (a, r).
Proof. apply take_n_N_spec. auto. Qed.

Theorem str_rd_roundtrip utf8 s rest :
  utf8 s = true -> N.of_nat (length s) <= MAX_ALLOCATION ->
  str_rd utf8 (str_enc s ++ rest) = Ok (s, rest).
Proof.
  intros Hu Hl. unfold str_rd, vec_rd, str_enc. rewrite <- app_assoc.
  rewrite u64_rd_roundtrip by (unfold MAX_ALLOCATION, pow64 in *; lia). cbn [bind].
  destruct (N.of_nat (length s) =? 0) eqn:E0.
  - assert (s = []) as Hs by (destruct s; [reflexivity|cbn in E0; lia]). subst s. cbn [app bind]. now rewrite Hu.
  - assert ((MAX_ALLOCATION <? N.of_nat (length s)) = false) as -> by lia.
    rewrite col_take_app. cbn [bind]. rewrite Hu. reflexivity.
Qed.

Lemma bool_fill_no_panic fuel : forall s, bool_fill fuel s <> Panic.
Proof.
  induction fuel as [|fuel IH]; intros [[d last] count]; cbn [bool_fill].
  - destruct (negb (count =? 0)); discriminate.
  - destruct (negb (count =? 0)); [discriminate|]. destruct d as [|b t]; [discriminate|].
    apply bind_no_panic; [apply u64_rd_no_panic|]. intros [c d1] _. apply IH.
Qed.
Theorem bool_next_no_panic s : bool_next s <> Panic.
Proof.
  apply bind_no_panic; [apply bool_fill_no_panic|]. intros [[[d last] count]|] _; discriminate.
Qed.
Theorem maybe_bool_next_no_panic e s : maybe_bool_next e s <> Panic.
Proof. unfold maybe_bool_next. destruct e; [discriminate|apply bool_next_no_panic]. Qed.

(* a literal run of i64::MIN items; a null run of 2^63 items (the count, cast to isize, is isize::MIN) *)
Theorem rle_decoder_panics :
  rle_next u64_rd (rle_init [128; 128; 128; 128; 128; 128; 128; 128; 128; 127; 1]) = Panic
  /\ rle_next u64_rd (rle_init [0; 128; 128; 128; 128; 128; 128; 128; 128; 128; 1]) = Panic.
Proof. split; vm_compute; reflexivity. Qed.

