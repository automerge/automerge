(* Hexane/DeltaAccept.v — the delta loader accepts the writer's own output.

   For every value list whose values lie in a window [wlo, whi] that contains 0, is no wider
   than 2^63 - 1 and sits inside the element type's domain [lo, hi] (for u64 / Option<u64>
   columns: every list the type can hold, window [0, i64::MAX]),
       delta_load (delta_save vs) = Ok (group (deltas 0 vs))   and the realized values are vs.
   Method: the aggregate pass of the loader only looks at the run list and at the position
   of the slab cuts (every 32 value-bearing segments), so it comes out of the segment
   loop ([aggs], [dcheck_eq] in DeltaProofs); over the run list the invariant is that slab-relative
   offsets are differences of two realized values (or 0) inside the window. *)
From AM Require Import Base.Prelude Base.Leb128 Hexane.Hleb Hexane.HlebProofs Hexane.Rle Hexane.RleProofs
  Hexane.Delta Hexane.DeltaProofs.
Local Open Scope N_scope.

Section Accept.
  Variable nullable : bool.
  Variable lo hi wlo whi : Z.
  Hypothesis Hlo : (lo <= wlo)%Z.
  Hypothesis Hhi : (whi <= hi)%Z.
  Hypothesis Hzero : (wlo <= 0 <= whi)%Z.
  Hypothesis Hwidth : (whi - wlo <= i64_max)%Z.

  Definition win (x : Z) : Prop := (wlo <= x <= whi)%Z.

  Fixpoint dsum (r : Z) (l : list agg) : Z :=
    match l with
    | [] => r
    | w :: t => if a_len w =? 0 then dsum r t else dsum (r + a_total w)%Z t
    end.

  Definition okw (r : Z) (w : agg) : bool :=
    if a_len w =? 0 then true else negb ((r + a_min w <? lo) || (hi <? r + a_max w))%Z.

  Lemma domain_ok_snoc : forall l r w,
    domain_ok lo hi r (l ++ [w]) = domain_ok lo hi r l && okw (dsum r l) w.
  Proof.
    induction l as [|a l IH]; intros r w; cbn [app domain_ok dsum].
    - unfold okw. destruct (a_len w =? 0); [reflexivity|].
      destruct ((r + a_min w <? lo) || (hi <? r + a_max w))%Z; reflexivity.
    - destruct (a_len a =? 0); [apply IH|].
      destruct ((r + a_min a <? lo) || (hi <? r + a_max a))%Z; [reflexivity|apply IH].
  Qed.

  Lemma dsum_snoc : forall l r w,
    dsum r (l ++ [w]) = if a_len w =? 0 then dsum r l else (dsum r l + a_total w)%Z.
  Proof.
    induction l as [|a l IH]; intros r w; cbn [app dsum]; [reflexivity|].
    destruct (a_len a =? 0); apply IH.
  Qed.

  (* R0: realized value at the start of the current slab; R: current realized value *)
  Definition inv (R0 R : Z) (w : agg) (ws : list agg) : Prop :=
    win R0 /\ win R /\ a_total w = (R - R0)%Z /\
    (a_len w = 0 \/ win (R0 + a_min w) /\ win (R0 + a_max w)) /\
    domain_ok lo hi 0 (rev ws) = true /\ dsum 0 (rev ws) = R0.

  Definition good (R0 R' : Z) (w1 : agg) : Prop :=
    a_total w1 = (R' - R0)%Z /\ a_len w1 <> 0 /\ win (R0 + a_min w1) /\ win (R0 + a_max w1).

  Lemma inv_next R0 R R' w w1 ws :
    inv R0 R w ws -> good R0 R' w1 -> win R' ->
    inv R0 R' w1 ws /\ inv R' R' agg0 (w1 :: ws).
  Proof.
    intros (I1 & I2 & I3 & I4 & I5 & I6) (G1 & G2 & G3 & G4) HR'. unfold win in *. split.
    - repeat split; auto; lia.
    - unfold inv, win. cbn [agg0 a_total a_len a_min a_max rev].
      rewrite domain_ok_snoc, dsum_snoc, I5, I6. unfold okw.
      assert ((a_len w1 =? 0) = false) as -> by lia. cbn [andb].
      repeat split; lia.
  Qed.

  (* the realized value after a run of n items with stored delta x *)
  Definition after (R : Z) (n : N) (x : option Z) : Z :=
    match x with Some v => (R + Z.of_N n * v)%Z | None => R end.

  (* the first and the last value of a run lie in the window, hence all of them *)
  Definition run_ok (R : Z) (n : N) (x : option Z) : Prop :=
    match x with Some v => win (R + v) /\ win (R + Z.of_N n * v) | None => True end.

  Fixpoint rv_ok (R : Z) (rs : list (N * option Z)) : Prop :=
    match rs with
    | [] => True
    | (n, x) :: t => 1 <= n /\ run_ok R n x /\ rv_ok (after R n x) t
    end.

  Lemma in_i64b_win_diff a b d : win a -> win b -> d = (a - b)%Z -> in_i64b d = true.
  Proof.
    unfold win, in_i64b. intros Ha Hb ->. rewrite i64_min_val, i64_max_val in *.
    apply andb_true_iff. split; lia.
  Qed.

  Lemma accumulate_ok R0 R w ws n x :
    inv R0 R w ws -> 1 <= n -> run_ok R n x -> a_len w + n < pow63 ->
    exists w1, accumulate w n x = Ok w1 /\ good R0 (after R n x) w1.
  Proof.
    intros (I1 & I2 & I3 & I4 & I5 & I6) Hn1 Hrun Hlen. unfold accumulate.
    assert ((pow64 <=? a_len w + n) = false) as El by (rewrite pow63_val in Hlen; rewrite pow64_val; lia).
    destruct x as [v|]; cbn [run_ok after] in *.
    - destruct Hrun as (Hv & Hnv).
      assert ((pow63 <=? n) = false) as -> by lia.
      replace (v * Z.of_N n)%Z with (Z.of_N n * v)%Z by lia.
      set (p := (Z.of_N n * v)%Z) in *.
      rewrite I3, (in_i64b_win_diff (R + p) R p), (in_i64b_win_diff (R + v) R0 (R - R0 + v)),
        (in_i64b_win_diff (R + p) R0 (R - R0 + p)) by (assumption || lia).
      cbn [negb orb]. rewrite El. unfold win in *.
      destruct (a_len w =? 0) eqn:E0; eexists; (split; [reflexivity|]);
        unfold good, win; cbn [a_len a_total a_min a_max]; repeat split; lia.
    - rewrite El. unfold win in *.
      destruct (a_len w =? 0) eqn:E0; eexists; (split; [reflexivity|]);
        unfold good, win; cbn [a_len a_total a_min a_max]; repeat split; lia.
  Qed.

  Lemma aggs_ok : forall rs k w ws R0 R,
    inv R0 R w ws -> rv_ok R rs -> a_len w + total rs < pow63 ->
    exists w' ws' R0' R', aggs k w ws rs = Ok (w', ws') /\ inv R0' R' w' ws'.
  Proof.
    induction rs as [|[n x] t IH]; intros k w ws R0 R Hinv Hrv Hlen.
    - exists w, ws, R0, R. split; [reflexivity|exact Hinv].
    - destruct Hrv as (Hn1 & Hrun & Hrv). cbn [total] in Hlen.
      destruct (accumulate_ok R0 R w ws n x Hinv Hn1 Hrun ltac:(lia)) as (w1 & Ea & Hg).
      pose proof (accumulate_len w n x w1 Ea) as El.
      assert (HR : win (after R n x))
        by (destruct x; [apply Hrun|destruct Hinv as (_ & H & _); exact H]).
      destruct (inv_next R0 R _ w w1 ws Hinv Hg HR) as [Ia Ib].
      cbn [aggs]. rewrite Ea. cbn [bind].
      destruct (k + 1 =? rle_target).
      + apply (IH 0 agg0 (w1 :: ws) _ _ Ib Hrv). cbn [agg0 a_len]. lia.
      + apply (IH (k + 1) w1 ws _ _ Ia Hrv). lia.
  Qed.

  Lemma inv_init : inv 0 0 agg0 [].
  Proof. unfold inv, win. cbn. repeat split; try lia; intros H; congruence. Qed.

  Lemma inv_domain R0 R w ws (b : bool) :
    inv R0 R w ws -> domain_ok lo hi 0 (rev (if b then w :: ws else ws)) = true.
  Proof.
    intros (I1 & I2 & I3 & I4 & I5 & I6). destruct b; [|exact I5].
    cbn [rev]. rewrite domain_ok_snoc, I5, I6. unfold okw.
    destruct (a_len w =? 0) eqn:E; [reflexivity|]. unfold win in I4.
    assert (((R0 + a_min w <? lo) || (hi <? R0 + a_max w))%Z = false) as -> by lia. reflexivity.
  Qed.

  Definition winopt (x : option Z) : Prop := match x with Some v => win v | None => True end.

  Lemma rv_group : forall ds r, Forall winopt (realize r ds) -> rv_ok r (group Z Z.eqb ds).
  Proof.
    induction ds as [|x t IH]; intros r H; [exact I|].
    destruct x as [d|]; cbn [realize group] in *; inversion H as [|? ? Hx Ht]; subst; specialize (IH _ Ht).
    - assert (E1 : (r + Z.of_N 1 * d)%Z = (r + d)%Z) by lia.
      destruct (group Z Z.eqb t) as [|[n y] rest].
      + cbn [rv_ok run_ok after]. rewrite E1. split; [lia|]. split; [split; exact Hx|exact I].
      + destruct (oeqb Z Z.eqb (Some d) y) eqn:E.
        * apply (oeqb_spec Z Z.eqb Z.eqb_eq) in E. subst y. cbn [rv_ok run_ok after] in *.
          replace (r + Z.of_N (n + 1) * d)%Z with (r + d + Z.of_N n * d)%Z by lia.
          split; [lia|]. split; [split; [exact Hx|apply IH]|apply IH].
        * cbn [rv_ok run_ok after]. rewrite E1. split; [lia|]. split; [split; exact Hx|exact IH].
    - destruct (group Z Z.eqb t) as [|[n y] rest].
      + repeat split. lia.
      + destruct (oeqb Z Z.eqb None y) eqn:E.
        * apply (oeqb_spec Z Z.eqb Z.eqb_eq) in E. subst y. cbn [rv_ok run_ok after] in *.
          split; [lia|]. split; [exact I|apply IH].
        * cbn [rv_ok run_ok after]. split; [lia|]. split; [exact I|exact IH].
  Qed.

  Lemma deltas_wf : forall vs r, win r -> Forall winopt vs ->
    Forall (fun x => match x with Some d => wf_i64 d | None => True end) (deltas r vs).
  Proof.
    induction vs as [|[v|] t IH]; intros r Hr H; cbn [deltas]; [constructor| |];
      inversion H as [|? ? Hv Ht]; subst.
    - constructor; [|apply IH; assumption]. unfold wf_i64, in_i64. cbn [winopt] in Hv. unfold win in *.
      rewrite i64_min_val, i64_max_val in *. lia.
    - constructor; [exact I|apply IH; assumption].
  Qed.

  Lemma deltas_null : forall vs r, Forall (fun x => x = None -> nullable = true) vs ->
    Forall (nullok Z nullable) (deltas r vs).
  Proof.
    induction vs as [|[v|] t IH]; intros r H; cbn [deltas]; [constructor| |];
      inversion H as [|? ? Hv Ht]; subst; constructor; auto.
    unfold nullok. discriminate.
  Qed.

  Definition delta_dom (vs : list (option Z)) : Prop :=
    Forall winopt vs /\ Forall (fun x => x = None -> nullable = true) vs /\ N.of_nat (length vs) < pow63.

  Theorem delta_load_save vs :
    delta_dom vs -> delta_load nullable lo hi (delta_save vs) = Ok (group Z Z.eqb (deltas 0 vs)).
  Proof.
    intros (Hw & Hn & Hl).
    set (ds := deltas 0 vs). set (rs := group Z Z.eqb ds).
    assert (Hz : win 0) by (unfold win; lia).
    assert (Hcanon : canon Z nullable None rs).
    { apply (canon_group Z Z.eqb nullable Z.eqb_eq). apply deltas_null. exact Hn. }
    assert (Htot : total rs < pow63).
    { unfold rs. rewrite total_group. unfold ds. rewrite deltas_length. exact Hl. }
    assert (Hrun : Forall (fun r => match snd r with Some d => wf_i64 d | None => True end) rs).
    { apply (grp_Forall _ _ (fun x => match x with Some d => wf_i64 d | None => True end)).
      apply deltas_wf; assumption. }
    rewrite <- (realize_deltas vs 0) in Hw.
    unfold delta_save, i64_save, rle_save, delta_load. fold ds. fold rs.
    rewrite (parse_save_runs Z i64_enc i64_dec wf_i64 i64_dec_enc i64_enc_nonempty)
      by exact (segs_framed Z nullable wf_i64 rs None false Hcanon Hrun Htot).
    destruct (check_save_runs Z Z.eqb nullable Z.eqb_eq rs Hcanon) as (c' & Q1 & Q2).
    { rewrite pow63_val in Htot. rewrite u64_max_val. lia. }
    destruct (aggs_ok rs 0 agg0 [] 0 0 inv_init (rv_group ds 0 Hw) Htot) as (w' & ws' & R0' & R' & Ea & Hinv).
    unfold delta_load_segs. rewrite dcheck_eq, Q1, runs_of_segs_aux. cbn [cst_init c_segs].
    rewrite Ea. cbn [bind]. unfold dfinish. rewrite Q2. cbn [bind].
    rewrite (inv_domain R0' R' w' ws' (0 <? c_segs Z c') Hinv). reflexivity.
  Qed.

  Theorem delta_load_vals_save vs :
    delta_dom vs -> delta_load_vals nullable lo hi (delta_save vs) = Ok vs.
  Proof.
    intros H. unfold delta_load_vals. rewrite delta_load_save by exact H. cbn [bind].
    rewrite (expand_group Z Z.eqb Z.eqb_eq). rewrite realize_deltas. reflexivity.
  Qed.
End Accept.
