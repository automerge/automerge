(* Hexane/ColSpecProofs.v — the algebra of the Vec specification of hexane columns (C34).
   All statements are unbounded (any list, any index). *)
From AM Require Import Base.Prelude Base.ListFacts Hexane.ColSpec.
From AM Require Hexane.DeltaProofs.
From Coq Require Import Sorted.

(* list facts missing from the 8.16 standard library *)
Lemma nth_error_firstn {A} n (l : list A) k :
  nth_error (firstn n l) k = if k <? n then nth_error l k else None.
Proof.
  revert l k. induction n as [|n IH]; intros l k.
  - cbn [firstn]. destruct k; reflexivity.
  - destruct l as [|x t]; [cbn [firstn]; destruct k; cbn [nth_error]; destruct (_ <? _); reflexivity|].
    destruct k as [|k]; [reflexivity|]. cbn [firstn nth_error]. rewrite IH. reflexivity.
Qed.

Lemma nth_error_skipn {A} n (l : list A) k : nth_error (skipn n l) k = nth_error l (n + k).
Proof.
  revert l. induction n as [|n IH]; intros l; [reflexivity|].
  destruct l as [|x t]; [destruct k; reflexivity|]. cbn [skipn Nat.add nth_error]. apply IH.
Qed.

Lemma skipn_skipn {A} x y (l : list A) : skipn x (skipn y l) = skipn (x + y) l.
Proof.
  revert l. induction y as [|y IH]; intros l; [rewrite Nat.add_0_r; reflexivity|].
  destruct l as [|a t]; [rewrite !skipn_nil; reflexivity|].
  rewrite Nat.add_succ_r. cbn [skipn]. apply IH.
Qed.

Lemma skipn_length_app {A} (a x : list A) : skipn (length a) (a ++ x) = x.
Proof. induction a as [|y a IH]; [reflexivity|exact IH]. Qed.

Lemma split3 {A} i d (l : list A) :
  i + d <= length l -> exists a m c, l = a ++ m ++ c /\ length a = i /\ length m = d.
Proof.
  intros H. exists (firstn i l), (firstn d (skipn i l)), (skipn (i + d) l).
  split; [rewrite app_assoc, <- firstn_add, firstn_skipn; reflexivity|].
  rewrite !firstn_length, skipn_length. lia.
Qed.

Lemma hd_error_least (l : list nat) :
  StronglySorted lt l ->
  match hd_error l with
  | Some k => In k l /\ forall j, In j l -> k <= j
  | None => forall j, ~ In j l
  end.
Proof.
  intros Hs. destruct l as [|k r]; cbn [hd_error]; [intros j []|].
  inversion Hs as [|? ? _ Hall]; subst. rewrite Forall_forall in Hall.
  split; [left; reflexivity|]. intros j [<-|Hj]; [lia|]. specialize (Hall j Hj). lia.
Qed.

Fixpoint pos_from {A} (p : A -> bool) (i : nat) (l : list A) : list nat :=
  match l with
  | [] => []
  | x :: t => if p x then i :: pos_from p (S i) t else pos_from p (S i) t
  end.

Lemma pos_from_spec {A} (p : A -> bool) i l k :
  In k (pos_from p i l) <-> exists j x, k = i + j /\ nth_error l j = Some x /\ p x = true.
Proof.
  revert i. induction l as [|y t IH]; intros i; cbn [pos_from].
  - split; [intros []|]. intros ([|j] & x & _ & H & _); discriminate.
  - split.
    + intros H.
      assert (H' : k = i /\ p y = true \/ In k (pos_from p (S i) t))
        by (destruct (p y); [destruct H|]; auto).
      destruct H' as [[-> Hp]|H'].
      * exists 0, y. rewrite Nat.add_0_r. auto.
      * apply IH in H'. destruct H' as (j & x & -> & Hj & Hp). exists (S j), x. split; [lia|auto].
    + intros ([|j] & x & -> & Hj & Hp).
      * injection Hj as ->. rewrite Hp, Nat.add_0_r. left. reflexivity.
      * assert (In (i + S j) (pos_from p (S i) t)) by (apply IH; exists j, x; split; [lia|auto]).
        destruct (p y); [right|]; assumption.
Qed.

Lemma pos_from_sorted {A} (p : A -> bool) i l : StronglySorted lt (pos_from p i l).
Proof.
  revert i. induction l as [|y t IH]; intros i; cbn [pos_from]; [constructor|].
  destruct (p y); [|apply IH]. constructor; [apply IH|].
  apply Forall_forall. intros k Hk. apply pos_from_spec in Hk. destruct Hk as (j & _ & -> & _). lia.
Qed.

Section Edits.
  Context {V : Type}.

  Lemma splice_ok i del vals (l r : list V) :
    splice i del vals l = Ok r <->
    (i + del <= length l /\ r = firstn i l ++ vals ++ skipn (i + del) l).
  Proof.
    unfold splice. destruct (i + del <=? length l) eqn:E.
    - split; [intros [= <-]; split; [lia|reflexivity]|intros [_ ->]; reflexivity].
    - split; [discriminate|lia].
  Qed.

  Lemma splice_panic i del vals (l : list V) :
    splice i del vals l = Panic <-> length l < i + del.
  Proof.
    unfold splice. destruct (i + del <=? length l) eqn:E; split; try discriminate; try lia. reflexivity.
  Qed.

  Lemma splice_not_err i del vals (l : list V) : splice i del vals l <> Err.
  Proof. unfold splice. destruct (i + del <=? length l); discriminate. Qed.

  Lemma splice_length i del vals (l r : list V) :
    splice i del vals l = Ok r -> length r + del = length l + length vals.
  Proof.
    intros H. apply splice_ok in H. destruct H as [Hle ->].
    rewrite !app_length, firstn_length, skipn_length. lia.
  Qed.

  Lemma splice_app (a m vals c : list V) :
    splice (length a) (length m) vals (a ++ m ++ c) = Ok (a ++ vals ++ c).
  Proof.
    unfold splice. destruct (_ <=? _) eqn:E; [|rewrite !app_length in E; lia].
    rewrite firstn_length_app, <- app_length, (app_assoc a m c), skipn_length_app. reflexivity.
  Qed.

  Lemma splice_nth i del vals (l r : list V) k :
    splice i del vals l = Ok r ->
    nth_error r k =
      if k <? i then nth_error l k
      else if k <? i + length vals then nth_error vals (k - i)
      else nth_error l (k - length vals + del).
  Proof.
    intros H. apply splice_ok in H. destruct H as [Hle ->].
    assert (Hf : length (firstn i l) = i) by (rewrite firstn_length; lia).
    destruct (k <? i) eqn:E1.
    - rewrite nth_error_app1, nth_error_firstn, E1 by lia. reflexivity.
    - rewrite nth_error_app2, Hf by lia. destruct (k <? i + length vals) eqn:E2.
      + rewrite nth_error_app1 by lia. reflexivity.
      + rewrite nth_error_app2, nth_error_skipn by lia. f_equal. lia.
  Qed.

  Lemma insert_spec i v (l : list V) :
    insert i v l = if i <=? length l then Ok (firstn i l ++ v :: skipn i l) else Panic.
  Proof. unfold insert, splice. rewrite Nat.add_0_r. reflexivity. Qed.

  Lemma remove_spec i (l : list V) : remove i l = Ok (firstn i l ++ skipn (S i) l).
  Proof.
    unfold remove, splice. destruct (i <? length l) eqn:E.
    - replace (i + 1 <=? length l) with true by lia. rewrite Nat.add_1_r. reflexivity.
    - rewrite firstn_all2, skipn_all2, app_nil_r by lia. reflexivity.
  Qed.

  Lemma remove_n_spec i n (l : list V) :
    remove_n i n l =
      if i + n <=? length l then Ok (firstn i l ++ skipn (i + n) l)
      else if n =? 0 then Ok l else Panic.
  Proof.
    unfold remove_n, splice. destruct n as [|n]; [|reflexivity].
    cbn [Nat.ltb Nat.leb Nat.eqb]. rewrite Nat.add_0_r, firstn_skipn. destruct (i <=? length l); reflexivity.
  Qed.

  Lemma extend_spec vals (l : list V) : extend vals l = Ok (l ++ vals).
  Proof.
    unfold extend, splice. rewrite Nat.add_0_r, Nat.leb_refl.
    rewrite firstn_all, skipn_all, app_nil_r. reflexivity.
  Qed.

  Lemma push_spec v (l : list V) : push v l = Ok (l ++ [v]).
  Proof. exact (extend_spec [v] l). Qed.

  Lemma clear_spec (l : list V) : clear l = Ok [].
  Proof.
    unfold clear, splice. destruct l as [|x l]; [reflexivity|].
    replace (0 <? length (x :: l)) with true by reflexivity.
    cbn [Nat.add]. rewrite Nat.leb_refl. rewrite skipn_all. reflexivity.
  Qed.

  Lemma truncate_spec n (l : list V) : truncate n l = Ok (firstn n l).
  Proof.
    unfold truncate, splice. destruct (n <? length l) eqn:E.
    - replace (n + (length l - n)) with (length l) by lia.
      rewrite Nat.leb_refl, skipn_all, app_nil_r. reflexivity.
    - rewrite firstn_all2 by lia. reflexivity.
  Qed.

  Lemma pop_spec (l : list V) : pop l = Ok (removelast l).
  Proof.
    unfold pop. destruct (0 <? length l) eqn:E.
    - rewrite remove_spec. replace (S (length l - 1)) with (length l) by lia.
      rewrite skipn_all, app_nil_r, removelast_firstn_len. f_equal. f_equal. lia.
    - destruct l; [reflexivity|cbn in E; lia].
  Qed.

  Lemma expand_runs_cons c v (rs : list (nat * V)) :
    expand_runs ((c, v) :: rs) = repeat v c ++ expand_runs rs.
  Proof. reflexivity. Qed.

  Lemma splice_runs_spec i del rs (l : list V) :
    splice_runs i del rs l = splice i del (expand_runs rs) l.
  Proof. reflexivity. Qed.

  Lemma splice_decompose i del vals (l : list V) :
    i + del <= length l ->
    splice i del vals l = (let* l1 := remove_n i del l in splice i 0 vals l1).
  Proof.
    intros Hle. destruct (split3 i del l Hle) as (a & m & c & -> & <- & <-).
    assert (E : remove_n (length a) (length m) (a ++ m ++ c) = Ok (a ++ c))
      by (unfold remove_n; destruct m; [reflexivity|apply (splice_app a (_ :: _) [] c)]).
    rewrite splice_app, E. symmetry. exact (splice_app a [] vals c).
  Qed.

  (* on l = a ++ m1 ++ b ++ m2 ++ c both sides are a ++ v1 ++ b ++ v2 ++ c *)
  Lemma splice_splice_commute i1 d1 v1 i2 d2 v2 (l : list V) :
    i1 + d1 <= i2 -> i2 + d2 <= length l ->
    (let* l' := splice i2 d2 v2 l in splice i1 d1 v1 l') =
    (let* l' := splice i1 d1 v1 l in splice (i2 + length v1 - d1) d2 v2 l').
  Proof.
    intros H1 H2.
    destruct (split3 i2 d2 l H2) as (p & m2 & c & -> & <- & <-).
    destruct (split3 i1 d1 p H1) as (a & m1 & b & -> & <- & <-).
    pose proof (splice_app (a ++ v1 ++ b) m2 v2 c) as E.
    rewrite splice_app. cbn [bind]. rewrite <- !app_assoc in *. rewrite !splice_app. cbn [bind].
    rewrite <- E. f_equal. rewrite !app_length. lia.
  Qed.

End Edits.

Section Cursor.
  Context {V : Type}.
  Variable veqb : V -> V -> bool.

  Lemma cur_insert_runs_fold (rs : list (nat * V)) c :
    cur_run veqb (map (fun r => CInsertRun (snd r) (fst r)) rs) c =
    Ok {| c_done := c_done c ++ expand_runs rs; c_rest := c_rest c; c_orig := c_orig c |}.
  Proof.
    revert c. induction rs as [|[n v] rs IH]; intros c; cbn [map cur_run].
    - change (expand_runs []) with (@nil V). rewrite app_nil_r. destruct c; reflexivity.
    - cbn [cur_step bind fst snd]. rewrite IH, expand_runs_cons, app_assoc. reflexivity.
  Qed.

  (* Column::splice_inner is literally: edit_at(index); delete(del); insert_run for each run; finish *)
  Lemma cursor_session_is_splice i del rs l :
    i + del <= length l ->
    edit_session veqb i (CDelete del :: map (fun r => CInsertRun (snd r) (fst r)) rs) l =
    splice_runs i del rs l.
  Proof.
    intros Hle. unfold edit_session, edit_at, splice_runs, splice.
    replace (i <=? length l) with true by lia. replace (i + del <=? length l) with true by lia.
    cbn [bind cur_run cur_step]. rewrite cur_insert_runs_fold. cbn [bind].
    unfold cur_finish, cur_delete. cbn [c_done c_rest c_orig].
    rewrite skipn_length. replace (Nat.min del (length l - i)) with del by lia.
    rewrite skipn_skipn, (Nat.add_comm del i), <- app_assoc. reflexivity.
  Qed.

  (* whatever the operation, the items still ahead of a cursor are a suffix of the original column *)
  Lemma cur_step_suffix op c c' l :
    cur_step veqb op c = Ok c' ->
    c_rest c = skipn (c_orig c) l -> c_orig c <= length l ->
    c_rest c' = skipn (c_orig c') l /\ c_orig c' <= length l.
  Proof.
    intros H Hr Hle.
    (* advancing and deleting move the cursor alike *)
    assert (Move : forall n, let k := Nat.min n (length (c_rest c)) in
                   skipn k (c_rest c) = skipn (c_orig c + k) l /\ c_orig c + k <= length l).
    { intros n. cbn zeta. rewrite Hr, skipn_skipn, skipn_length. split; [f_equal|]; lia. }
    destruct op as [to|to|n|n|v n|v]; cbn [cur_step] in H.
    - destruct (c_orig c <=? to); [|discriminate]. injection H as <-. apply Move.
    - injection H as <-. apply Move.
    - injection H as <-. apply Move.
    - injection H as <-. apply Move.
    - injection H as <-. auto.
    - destruct (c_rest c) as [|x t] eqn:Ec.
      + injection H as <-. rewrite Ec. auto.
      + rewrite <- Ec in Move. destruct (veqb x v); injection H as <-; apply Move.
  Qed.

End Cursor.

Section Windows.
  Context {V : Type}.

  Lemma win_bounds a b (l : list V) :
    win_start a l <= win_end a b l /\ win_end a b l <= length l.
  Proof. unfold win_end, win_start. lia. Qed.

  Lemma iter_range_length a b (l : list V) :
    length (iter_range a b l) = win_end a b l - win_start a l.
  Proof.
    unfold iter_range. rewrite firstn_length, skipn_length.
    pose proof (win_bounds a b l). lia.
  Qed.

  Lemma iter_range_nth a b (l : list V) k :
    nth_error (iter_range a b l) k =
      if k <? win_end a b l - win_start a l then nth_error l (win_start a l + k) else None.
  Proof.
    unfold iter_range. rewrite nth_error_firstn.
    destruct (k <? win_end a b l - win_start a l); [|reflexivity].
    apply nth_error_skipn.
  Qed.

  Lemma iter_range_inrange a b (l : list V) :
    a <= b -> b <= length l -> iter_range a b l = firstn (b - a) (skipn a l).
  Proof.
    intros H1 H2. unfold iter_range, win_end, win_start.
    replace (Nat.min a (length l)) with a by lia.
    replace (Nat.max (Nat.min b (length l)) a) with b by lia. reflexivity.
  Qed.

  Lemma iter_range_all (l : list V) : iter_range 0 (length l) l = l.
  Proof.
    rewrite iter_range_inrange by lia. cbn [skipn]. rewrite Nat.sub_0_r. apply firstn_all.
  Qed.

  Lemma get_iter_nth a b k (l : list V) :
    k < win_end a b l - win_start a l -> iter_nth a b k l = get (win_start a l + k) l.
  Proof.
    intros H. unfold iter_nth, get. rewrite iter_range_nth.
    replace (k <? win_end a b l - win_start a l) with true by lia. reflexivity.
  Qed.

End Windows.

Section Eq.
  Context {V : Type}.
  Variable veqb : V -> V -> bool.

  Fixpoint adj_diff (rs : list (nat * V)) : Prop :=
    match rs with
    | r1 :: ((r2 :: _) as t) => snd r1 <> snd r2 /\ adj_diff t
    | _ => True
    end.

  Lemma find_from_pos v i (l : list V) : find_from veqb v i l = pos_from (fun x => veqb x v) i l.
  Proof.
    revert i. induction l as [|x t IH]; intros i; cbn [find_from pos_from]; [|rewrite IH]; reflexivity.
  Qed.

  Lemma find_all_sorted v a b (l : list V) : StronglySorted lt (find_all veqb v a b l).
  Proof. unfold find_all. rewrite find_from_pos. apply pos_from_sorted. Qed.

  Hypothesis veqb_eq : forall x y, veqb x y = true <-> x = y.

  Lemma runs_spec (l : list V) :
    expand_runs (runs veqb l) = l /\ Forall (fun r => 0 < fst r) (runs veqb l) /\ adj_diff (runs veqb l).
  Proof.
    induction l as [|x t (IHe & IHp & IHa)]; [repeat constructor|]. cbn [runs].
    destruct (runs veqb t) as [|[c y] r].
    - cbn in IHe. subst t. repeat constructor.
    - rewrite <- IHe. inversion IHp as [|? ? _ Hr]; subst. destruct (veqb x y) eqn:Exy.
      + apply veqb_eq in Exy. subst y. split; [reflexivity|]. split; [constructor; [apply Nat.lt_0_succ|exact Hr]|].
        destruct r; [exact I|exact IHa].
      + split; [reflexivity|]. split; [constructor; [apply Nat.lt_0_1|exact IHp]|]. split; [|exact IHa].
        cbn [snd]. intros ->. rewrite (proj2 (veqb_eq y y) eq_refl) in Exy. discriminate.
  Qed.

  Lemma runs_unique (rs : list (nat * V)) :
    Forall (fun r => 0 < fst r) rs -> adj_diff rs -> runs veqb (expand_runs rs) = rs.
  Proof.
    induction rs as [|[c v] rs IH]; intros Hpos Hadj; [reflexivity|].
    inversion Hpos as [|? ? Hc Hpos']; subst. cbn [fst] in Hc.
    assert (Hadj' : adj_diff rs) by (destruct rs; [exact I|apply Hadj]).
    specialize (IH Hpos' Hadj'). rewrite expand_runs_cons.
    destruct c as [|c]; [lia|]. clear Hc.
    assert (Hne : match rs with r2 :: _ => v <> snd r2 | [] => True end)
      by (destruct rs as [|r2 ?]; [exact I|apply Hadj]).
    clear Hpos Hadj Hpos' Hadj'.
    induction c as [|c IHc].
    - cbn [repeat app runs]. rewrite IH. destruct rs as [|[c2 v2] rs']; [reflexivity|].
      destruct (veqb v v2) eqn:E; [|reflexivity].
      apply veqb_eq in E. cbn in Hne. congruence.
    - change (repeat v (S (S c))) with (v :: repeat v (S c)). cbn [app runs].
      rewrite IHc, (proj2 (veqb_eq v v) eq_refl). reflexivity.
  Qed.

  Lemma find_all_spec v a b (l : list V) k :
    In k (find_all veqb v a b l) <->
    win_start a l <= k < win_end a b l /\ nth_error l k = Some v.
  Proof.
    unfold find_all. rewrite find_from_pos, pos_from_spec. split.
    - intros (j & x & -> & Hj & Hx). apply veqb_eq in Hx. subst x. rewrite iter_range_nth in Hj.
      destruct (j <? _) eqn:E; [|discriminate]. split; [lia|exact Hj].
    - intros [Hk Hv]. exists (k - win_start a l), v. rewrite iter_range_nth.
      replace (_ <? _) with true by lia. replace (win_start a l + (k - win_start a l)) with k by lia.
      split; [lia|]. split; [exact Hv|apply veqb_eq; reflexivity].
  Qed.

  Lemma scan_to_value_spec v a b (l : list V) :
    match scan_to_value veqb v a b l with
    | Some k => win_start a l <= k < win_end a b l /\ nth_error l k = Some v /\
                forall j, win_start a l <= j < k -> nth_error l j <> Some v
    | None => forall j, win_start a l <= j < win_end a b l -> nth_error l j <> Some v
    end.
  Proof.
    unfold scan_to_value. pose proof (hd_error_least _ (find_all_sorted v a b l)) as H.
    destruct (hd_error _) as [k|].
    - destruct H as [Hk Hmin]. apply find_all_spec in Hk. destruct Hk as [Hk Hv].
      split; [exact Hk|]. split; [exact Hv|]. intros j Hj Hjv.
      assert (k <= j) by (apply Hmin, find_all_spec; split; [lia|exact Hjv]). lia.
    - intros j Hj Hv. apply (H j), find_all_spec. auto.
  Qed.

End Eq.

Section Acc.
  Context {V : Type}.
  Variable wt : V -> Z.

  Lemma sum_cons x (l : list V) : sum wt (x :: l) = (wt x + sum wt l)%Z.
  Proof. reflexivity. Qed.

  Lemma sum_app (l1 l2 : list V) : sum wt (l1 ++ l2) = (sum wt l1 + sum wt l2)%Z.
  Proof. induction l1 as [|x t IH]; [reflexivity|]. cbn [app]. rewrite !sum_cons, IH. lia. Qed.

  Lemma sum_nonneg (l : list V) : (forall x, In x l -> (0 <= wt x)%Z) -> (0 <= sum wt l)%Z.
  Proof.
    induction l as [|x t IH]; intros H; [apply Z.le_refl|]. rewrite sum_cons.
    pose proof (H x (or_introl eq_refl)). pose proof (IH (fun y Hy => H y (or_intror Hy))). lia.
  Qed.

  Lemma prefix_0 (l : list V) : get_prefix wt 0 l = 0%Z.
  Proof. reflexivity. Qed.

  Lemma prefix_cons i x (l : list V) : get_prefix wt (S i) (x :: l) = (wt x + get_prefix wt i l)%Z.
  Proof. reflexivity. Qed.

  Lemma prefix_S i (l : list V) x :
    nth_error l i = Some x -> get_prefix wt (S i) l = (get_prefix wt i l + wt x)%Z.
  Proof.
    revert l. induction i as [|i IH]; intros [|y t] H; try discriminate.
    - injection H as ->. rewrite prefix_cons, !prefix_0. lia.
    - rewrite !prefix_cons, (IH t H). lia.
  Qed.

  Lemma prefix_min i (l : list V) : get_prefix wt (Nat.min i (length l)) l = get_prefix wt i l.
  Proof. unfold get_prefix. rewrite <- firstn_firstn, firstn_all. reflexivity. Qed.

  Lemma prefix_clamp i (l : list V) : length l <= i -> get_prefix wt i l = sum wt l.
  Proof. intros H. unfold get_prefix. rewrite firstn_all2 by lia. reflexivity. Qed.

  Lemma prefix_app i (l1 l2 : list V) :
    get_prefix wt (length l1 + i) (l1 ++ l2) = (sum wt l1 + get_prefix wt i l2)%Z.
  Proof. unfold get_prefix. rewrite firstn_app_2. apply sum_app. Qed.

  Lemma prefix_split i j (l : list V) :
    i <= j -> get_prefix wt j l = (get_prefix wt i l + sum wt (firstn (j - i) (skipn i l)))%Z.
  Proof.
    intros H. unfold get_prefix. rewrite <- sum_app, <- firstn_add. f_equal. f_equal. lia.
  Qed.

  (* unsigned columns: prefix sums are not negative and never decrease *)
  Lemma prefix_mono i j (l : list V) :
    (forall x, In x l -> (0 <= wt x)%Z) -> i <= j -> (get_prefix wt i l <= get_prefix wt j l)%Z.
  Proof.
    intros Hnn Hij. rewrite (prefix_split i j l Hij).
    assert (0 <= sum wt (firstn (j - i) (skipn i l)))%Z; [|lia].
    apply sum_nonneg. intros x Hx. apply Hnn.
    apply In_firstn in Hx. eapply In_skipn; eauto.
  Qed.

  Lemma prefix_nonneg i (l : list V) :
    (forall x, In x l -> (0 <= wt x)%Z) -> (0 <= get_prefix wt i l)%Z.
  Proof. intros Hnn. rewrite <- (prefix_0 l). apply prefix_mono; [assumption|lia]. Qed.

  Lemma sum_iter_range a b (l : list V) :
    sum wt (iter_range a b l) = (get_prefix wt (win_end a b l) l - get_prefix wt (win_start a l) l)%Z.
  Proof.
    rewrite (prefix_split (win_start a l) (win_end a b l) l) by apply win_bounds.
    unfold iter_range. lia.
  Qed.

  Lemma sum_range_spec a b (l : list V) :
    a <= b -> sum_range wt a b l = sum wt (iter_range a b l).
  Proof.
    intros Hab. rewrite sum_iter_range.
    replace (win_end a b l) with (Nat.min b (length l)) by (unfold win_end, win_start; lia).
    unfold win_start. rewrite !prefix_min. unfold sum_range.
    destruct (b <=? a) eqn:E; [replace b with a by lia; cbn [orb]; lia|].
    destruct l; [|reflexivity]. unfold get_prefix. rewrite !firstn_nil. reflexivity.
  Qed.

  (* [ifp_go] scans for the first position whose running sum reaches t *)
  Lemma ifp_go_spec t acc i (l : list V) :
    exists j, ifp_go wt t acc i l = S (i + j) /\ j <= length l /\
      (forall j', j' < j -> (acc + get_prefix wt (S j') l < t)%Z) /\
      (j < length l -> (t <= acc + get_prefix wt (S j) l)%Z).
  Proof.
    revert acc i. induction l as [|x r IH]; intros acc i; cbn [ifp_go length]; cbn zeta.
    - exists 0. repeat split; lia.
    - destruct (t <=? acc + wt x)%Z eqn:E.
      + exists 0. rewrite prefix_cons, prefix_0. repeat split; lia.
      + destruct (IH (acc + wt x)%Z (S i)) as (j & -> & Hj & Hlo & Hhi). exists (S j).
        split; [f_equal; lia|]. split; [lia|]. split.
        * intros [|j'] Hj'; rewrite prefix_cons; [rewrite prefix_0; lia|].
          specialize (Hlo j' ltac:(lia)). lia.
        * intros Hlt. rewrite prefix_cons. specialize (Hhi ltac:(lia)). lia.
  Qed.

  (* get_index_for_prefix(t), t > 0: the FIRST k >= 1 with prefix(k) >= t; len+1 if there is none *)
  Lemma index_for_prefix_spec t (l : list V) :
    (0 < t)%Z ->
    let k := index_for_prefix wt t l in
    1 <= k <= S (length l) /\
    (forall j, 1 <= j < k -> (get_prefix wt j l < t)%Z) /\
    (k <= length l -> (t <= get_prefix wt k l)%Z).
  Proof.
    intros Ht. cbn zeta. unfold index_for_prefix. replace (t <=? 0)%Z with false by lia.
    destruct (ifp_go_spec t 0%Z 0 l) as (j & -> & Hj & Hlo & Hhi). cbn [Nat.add].
    split; [lia|]. split.
    - intros [|j'] Hj'; [lia|]. specialize (Hlo j' ltac:(lia)). lia.
    - intros Hk. specialize (Hhi ltac:(lia)). lia.
  Qed.

  Lemma index_for_prefix_nonpos t (l : list V) : (t <= 0)%Z -> index_for_prefix wt t l = 0.
  Proof. intros H. unfold index_for_prefix. replace (t <=? 0)%Z with true by lia. reflexivity. Qed.

  (* on unsigned columns prefix sums never decrease, so the scan has stopped by j exactly when
     prefix(j) has reached t *)
  Lemma index_for_prefix_le t (l : list V) j :
    (forall x, In x l -> (0 <= wt x)%Z) -> (0 < t)%Z -> j <= length l ->
    (index_for_prefix wt t l <= j <-> (t <= get_prefix wt j l)%Z).
  Proof.
    intros Hnn Ht Hj. destruct (index_for_prefix_spec t l Ht) as (H1 & H2 & H3). split.
    - intros Hk. specialize (H3 ltac:(lia)). pose proof (prefix_mono _ _ l Hnn Hk). lia.
    - intros Hge. apply Nat.nlt_ge. intros Hlt. destruct j as [|j]; [rewrite prefix_0 in Hge; lia|].
      specialize (H2 (S j) ltac:(lia)). lia.
  Qed.

  Lemma index_for_total_iff t (l : list V) i :
    (forall x, In x l -> (0 <= wt x)%Z) -> (0 < t)%Z -> i < length l ->
    (index_for_total wt t l = i <-> (get_prefix wt i l < t <= get_total wt i l)%Z).
  Proof.
    intros Hnn Ht Hi. unfold index_for_total, get_total.
    destruct (index_for_prefix_spec t l Ht) as (H1 & _).
    pose proof (index_for_prefix_le t l i Hnn Ht ltac:(lia)).
    pose proof (index_for_prefix_le t l (S i) Hnn Ht Hi). lia.
  Qed.

  Lemma index_for_total_inverse (l : list V) i :
    (forall x, In x l -> (0 < wt x)%Z) -> i < length l ->
    index_for_total wt (get_total wt i l) l = i /\
    index_for_prefix wt (get_prefix wt (S i) l) l = S i.
  Proof.
    intros Hpos Hi.
    assert (Hnn : forall x, In x l -> (0 <= wt x)%Z) by (intros x Hx; specialize (Hpos x Hx); lia).
    destruct (nth_error l i) as [x|] eqn:Ex; [|apply nth_error_None in Ex; lia].
    pose proof (Hpos x (nth_error_In l i Ex)) as Hx. pose proof (prefix_S i l x Ex) as HS.
    pose proof (prefix_nonneg i l Hnn) as H0.
    assert (Hown : index_for_total wt (get_total wt i l) l = i)
      by (apply index_for_total_iff; auto; unfold get_total; lia).
    split; [exact Hown|]. unfold index_for_total, get_total in Hown.
    assert (Ht : (0 < get_prefix wt (S i) l)%Z) by lia.
    destruct (index_for_prefix_spec _ l Ht) as (H1 & _). lia.
  Qed.

  Lemma index_for_prefix_beyond t (l : list V) :
    (forall x, In x l -> (0 <= wt x)%Z) -> (sum wt l < t)%Z -> (0 < t)%Z ->
    index_for_prefix wt t l = S (length l).
  Proof.
    intros Hnn Hbig Ht. destruct (index_for_prefix_spec t l Ht) as (H1 & _).
    pose proof (index_for_prefix_le t l (length l) Hnn Ht (Nat.le_refl _)) as H.
    rewrite prefix_clamp in H by apply Nat.le_refl. lia.
  Qed.

  Lemma with_acc_nth acc (l : list V) k x :
    nth_error l k = Some x ->
    nth_error (with_acc wt acc l) k = Some (x, (acc + get_prefix wt (S k) l)%Z).
  Proof.
    revert acc k. induction l as [|y t IH]; intros acc k H; [destruct k; discriminate|].
    rewrite prefix_cons. destruct k as [|k]; cbn [nth_error with_acc] in *.
    - injection H as ->. rewrite prefix_0. do 2 f_equal. lia.
    - rewrite (IH _ _ H). do 2 f_equal. lia.
  Qed.

  Lemma with_acc_values acc (l : list V) : map fst (with_acc wt acc l) = l.
  Proof. revert acc. induction l as [|y t IH]; intros acc; cbn; [reflexivity|]. rewrite IH. reflexivity. Qed.

  (* advance_prefix(n) lands on the item containing unit n+1 past the window start *)
  Lemma advance_prefix_spec a b n (l : list V) p d x tot :
    (forall y, In y l -> (0 <= wt y)%Z) -> (0 <= n)%Z ->
    advance_prefix wt a b n l = Some (p, d, x, tot) ->
    win_start a l <= p < win_end a b l /\ nth_error l p = Some x /\
    d = (get_prefix wt p l - get_prefix wt (win_start a l) l)%Z /\ tot = get_total wt p l /\
    (get_prefix wt p l <= get_prefix wt (win_start a l) l + n < get_total wt p l)%Z.
  Proof.
    intros Hnn Hn. unfold advance_prefix.
    set (s := win_start a l). set (e := win_end a b l). set (here := get_prefix wt s l).
    set (tp := index_for_total wt (here + n + 1) l).
    destruct ((tp <? s) || (e <=? tp)) eqn:E; [discriminate|].
    destruct (nth_error l tp) as [y|] eqn:Ey; [|discriminate].
    intros [= <- <- <- <-].
    assert (Hlt : tp < length l) by (apply nth_error_Some; congruence).
    pose proof (prefix_nonneg s l Hnn : (0 <= here)%Z).
    pose proof (proj1 (index_for_total_iff (here + n + 1) l tp Hnn ltac:(lia) Hlt) eq_refl).
    split; [lia|]. split; [exact Ey|]. split; [reflexivity|]. split; [reflexivity|]. lia.
  Qed.
End Acc.

(* boolean columns: acc = number of trues *)
Definition bool_wt (b : bool) : Z := if b then 1%Z else 0%Z.

Lemma bool_prefix_counts i (l : list bool) :
  get_prefix bool_wt i l = Z.of_nat (count_occ bool_dec (firstn i l) true).
Proof.
  unfold get_prefix, sum. induction (firstn i l) as [|x t IH]; [reflexivity|].
  cbn [fold_right count_occ]. rewrite IH. destruct x; cbn [bool_wt].
  - destruct (bool_dec true true); [lia|congruence].
  - destruct (bool_dec false true); [discriminate|lia].
Qed.

Lemma deltas_from_null p l k : nth_error (deltas_from p l) k = Some None <-> nth_error l k = Some None.
Proof.
  revert p k. induction l as [|[v|] t IH]; intros p k; destruct k as [|k]; cbn [deltas_from nth_error];
    try (split; discriminate); try apply IH.
  split; auto.
Qed.

Lemma running_after_app p l1 l2 : running_after p (l1 ++ l2) = running_after (running_after p l1) l2.
Proof. revert p. induction l1 as [|[v|] t IH]; intros p; cbn; auto. Qed.

Fixpoint expand_delta_runs (rs : list (Z * option Z * nat)) : list (option Z) :=
  match rs with
  | [] => []
  | (_, d, c) :: r => repeat d c ++ expand_delta_runs r
  end.

Definition run_end (running : Z) (c : nat) (d : option Z) : Z :=
  match d with Some x => (running + Z.of_nat c * x)%Z | None => running end.

Lemma delta_runs_from_cons running c d rs :
  delta_runs_from running ((c, d) :: rs) = (running, d, c) :: delta_runs_from (run_end running c d) rs.
Proof. destruct d; reflexivity. Qed.

Lemma delta_runs_from_expand running rs :
  expand_delta_runs (delta_runs_from running rs) = expand_runs rs.
Proof.
  revert running. induction rs as [|[c d] r IH]; intros running; [reflexivity|].
  rewrite delta_runs_from_cons, expand_runs_cons. cbn [expand_delta_runs]. rewrite IH. reflexivity.
Qed.

Lemma realize_run running c d tail :
  running_after running (realize_from running (repeat d c ++ tail)) =
  running_after (run_end running c d) (realize_from (run_end running c d) tail).
Proof.
  revert running. induction c as [|c IH]; intros running; destruct d as [x|]; cbn [run_end repeat app].
  - replace (running + Z.of_nat 0 * x)%Z with running by lia. reflexivity.
  - reflexivity.
  - cbn [realize_from running_after]. rewrite IH. cbn [run_end].
    replace (running + x + Z.of_nat c * x)%Z with (running + Z.of_nat (S c) * x)%Z by lia. reflexivity.
  - apply IH.
Qed.

Lemma optz_eqb_eq x y : optz_eqb x y = true <-> x = y.
Proof. apply option_eqb_spec, Z.eqb_eq. Qed.

(* what DeltaIter presents is the running sum of what is stored: [deltas_from] and [realize_from]
   are [Delta.deltas] and [Delta.realize], and the round trips are in DeltaProofs *)
Lemma delta_run_iter_all (l : list (option Z)) :
  realize_from 0 (expand_delta_runs (delta_run_iter 0 (length l) l)) = l.
Proof.
  unfold delta_run_iter, win_end, win_start. cbn [Nat.min firstn skipn running_after].
  rewrite Nat.min_id, Nat.max_0_r, Nat.sub_0_r.
  rewrite delta_runs_from_expand.
  rewrite (proj1 (runs_spec optz_eqb optz_eqb_eq _)).
  rewrite <- (DeltaProofs.deltas_length l 0) at 1. rewrite firstn_all. exact (DeltaProofs.realize_deltas l 0).
Qed.

Lemma delta_runs_prefix running rs :
  forall pre p d c post, delta_runs_from running rs = pre ++ (p, d, c) :: post ->
  p = running_after running (realize_from running (expand_delta_runs pre)).
Proof.
  revert running. induction rs as [|[c0 d0] r IH]; intros running pre p d c post H.
  - destruct pre; discriminate.
  - rewrite delta_runs_from_cons in H. destruct pre as [|x pre].
    + injection H as <- _ _ _. reflexivity.
    + injection H as <- H. cbn [expand_delta_runs]. rewrite realize_run. exact (IH _ _ _ _ _ _ H).
Qed.

Lemma find_range_from_pos lo hi i l :
  find_range_from lo hi i l =
  pos_from (fun o => match o with Some x => (lo <=? x) && (x <? hi) | None => false end)%Z i l.
Proof.
  revert i. induction l as [|[x|] t IH]; intros i; cbn [find_range_from pos_from]; rewrite ?IH; reflexivity.
Qed.

Lemma find_by_range_sorted lo hi l : StronglySorted lt (find_by_range lo hi l).
Proof. unfold find_by_range. rewrite find_range_from_pos. apply pos_from_sorted. Qed.

Lemma find_by_range_spec lo hi (l : list (option Z)) k :
  In k (find_by_range lo hi l) <-> exists v, nth_error l k = Some (Some v) /\ (lo <= v < hi)%Z.
Proof.
  unfold find_by_range. rewrite find_range_from_pos, pos_from_spec. split.
  - intros (j & [v|] & -> & Hj & Hv); [|discriminate]. exists v. split; [exact Hj|lia].
  - intros (v & Hk & Hv). exists k, (Some v). split; [reflexivity|]. split; [exact Hk|lia].
Qed.

Lemma find_by_value_spec v (l : list (option Z)) k :
  In k (find_by_value v l) <-> nth_error l k = Some (Some v).
Proof.
  unfold find_by_value. rewrite find_by_range_spec. split.
  - intros [x [H1 H2]]. replace x with v in H1 by lia. exact H1.
  - intros H. exists v. split; [exact H|lia].
Qed.

Lemma find_first_spec v (l : list (option Z)) k :
  find_first v l = Some k ->
  nth_error l k = Some (Some v) /\ forall j, j < k -> nth_error l j <> Some (Some v).
Proof.
  unfold find_first. intros E.
  pose proof (hd_error_least _ (find_by_range_sorted v (v + 1) l)) as H.
  fold (find_by_value v l) in H. rewrite E in H. destruct H as [Hk Hmin].
  split; [apply find_by_value_spec, Hk|]. intros j Hj Hv. apply find_by_value_spec, Hmin in Hv. lia.
Qed.

(* in a list sorted by R, the items satisfying a predicate that R carries backwards come first *)
Lemma sorted_filter_prefix {A} (R : A -> A -> Prop) (p : A -> bool) (w : list A) :
  (forall x y, R x y -> p y = true -> p x = true) -> StronglySorted R w ->
  forall k x, nth_error w k = Some x -> (p x = true <-> k < length (filter p w)).
Proof.
  intros Hp. induction 1 as [|x0 t _ IH Hall]; intros k x Hk; [destruct k; discriminate|].
  destruct (p x0) eqn:E0.
  - cbn [filter]. rewrite E0. destruct k as [|k]; cbn [nth_error length] in *.
    + injection Hk as <-. split; [lia|auto].
    + rewrite (IH k x Hk). lia.
  - assert (Hf : forall y, In y (x0 :: t) -> p y = false).
    { intros y [<-|Hy]; [exact E0|]. destruct (p y) eqn:E; [|reflexivity].
      rewrite Forall_forall in Hall. rewrite (Hp x0 y (Hall y Hy) E) in E0. discriminate. }
    rewrite (filter_all_false p _ Hf), (Hf x (nth_error_In _ _ Hk)). cbn [length]. split; [discriminate|lia].
Qed.

Lemma filter_length_le {A} (p : A -> bool) (l : list A) : length (filter p l) <= length l.
Proof. induction l as [|x t IH]; [reflexivity|]. cbn [filter]. destruct (p x); cbn [length]; lia. Qed.

Lemma filter_or_length {A} (p q : A -> bool) (l : list A) :
  (forall x, p x = true -> q x = true -> False) ->
  length (filter (fun x => p x || q x) l) = length (filter p l) + length (filter q l).
Proof.
  intros Hpq. induction l as [|x t IH]; [reflexivity|]. cbn [filter]. pose proof (Hpq x) as Hx.
  destruct (p x), (q x); cbn [orb length]; lia.
Qed.

Section Scope.
  Context {V : Type}.
  Variable veqb vltb : V -> V -> bool.
  Hypothesis veqb_eq : forall x y, veqb x y = true <-> x = y.
  Hypothesis ltb_irrefl : forall x, vltb x x = false.
  Hypothesis ltb_trans : forall x y z, vltb x y = true -> vltb y z = true -> vltb x z = true.
  Hypothesis ltb_total : forall x y, vltb x y = false -> vltb y x = false -> x = y.

  (* non-decreasing *)
  Definition sorted_asc (w : list V) : Prop := StronglySorted (fun x y => vltb y x = false) w.

  Lemma lt_not_eq v x : vltb x v = true -> veqb x v = true -> False.
  Proof. intros Hlt Heq. apply veqb_eq in Heq. subst x. rewrite ltb_irrefl in Hlt. discriminate. Qed.

  (* both "below v" and "at most v" are carried backwards by the order *)
  Lemma below_closed v x y : vltb y x = false -> vltb y v = true -> vltb x v = true.
  Proof.
    intros Hyx Hyv. destruct (vltb x y) eqn:Exy; [exact (ltb_trans _ _ _ Exy Hyv)|].
    rewrite (ltb_total _ _ Exy Hyx). exact Hyv.
  Qed.

  Lemma atmost_closed v x y :
    vltb y x = false -> vltb y v || veqb y v = true -> vltb x v || veqb x v = true.
  Proof.
    intros Hyx Hy. apply orb_true_iff in Hy. destruct Hy as [Hy|Hy].
    - rewrite (below_closed v x y Hyx Hy). reflexivity.
    - apply veqb_eq in Hy. subst y. destruct (vltb x v) eqn:Exv; [reflexivity|].
      apply veqb_eq, ltb_total; assumption.
  Qed.

  (* Column::scope_to_value: inside a sorted window, the returned range is exactly where v is *)
  Lemma scope_to_value_spec v a b (l : list V) :
    sorted_asc (iter_range a b l) ->
    let r := scope_to_value veqb vltb v a b l in
    win_start a l <= fst r <= snd r /\ snd r <= win_end a b l /\
    forall k, win_start a l <= k < win_end a b l ->
              (nth_error l k = Some v <-> fst r <= k < snd r).
  Proof.
    intros Hs. unfold scope_to_value. cbn zeta. cbn [fst snd].
    set (w := iter_range a b l) in *.
    set (nl := length (filter (fun x => vltb x v) w)).
    set (ne := length (filter (fun x => veqb x v) w)).
    pose proof (win_bounds a b l) as [Hb1 Hb2].
    pose proof (iter_range_length a b l : length w = _) as Hlen.
    pose proof (filter_or_length _ _ w (lt_not_eq v) : _ = nl + ne) as Hsum.
    pose proof (filter_length_le (fun x => vltb x v || veqb x v) w) as Hle.
    split; [lia|]. split; [lia|]. intros k Hk.
    assert (Hnth : nth_error w (k - win_start a l) = nth_error l k).
    { unfold w. rewrite iter_range_nth. replace (_ <? _) with true by lia. f_equal. lia. }
    destruct (nth_error l k) as [x|] eqn:Ex; [|apply nth_error_None in Ex; lia].
    pose proof (sorted_filter_prefix _ _ w (below_closed v) Hs _ _ Hnth) as H1. fold nl in H1.
    pose proof (sorted_filter_prefix _ _ w (atmost_closed v) Hs _ _ Hnth) as H2. rewrite Hsum in H2.
    (* x = v exactly when x is at most v and not below it *)
    rewrite orb_true_iff in H2.
    transitivity (veqb x v = true); [rewrite veqb_eq; split; congruence|]. split.
    - intros E. pose proof (proj1 H2 (or_intror E)).
      assert (~ k - win_start a l < nl) by (intros Hlt; apply H1 in Hlt; exact (lt_not_eq v x Hlt E)). lia.
    - intros Hr. destruct (proj2 H2 ltac:(lia)) as [E|E]; [apply H1 in E; lia|exact E].
  Qed.
End Scope.
