(* Hexane/HlebProofs.v — round trips and ranges of hexane's varints. *)
From AM Require Import Base.Prelude Base.Leb128 Base.Sleb128 Base.Sleb128Proofs Hexane.Hleb.
Local Open Scope N_scope.

Lemma hudec_uenc f : forall n rest,
  n < lim f -> hudec f (uenc f n ++ rest) = Some (n, rest).
Proof.
  induction f as [|f IH]; intros n rest Hn; [cbn in Hn; lia|].
  cbn [hudec uenc].
  destruct (n <? 128) eqn:E.
  - cbn [app]. destruct (Nat.eqb f 0) eqn:Ef.
    + apply Nat.eqb_eq in Ef. subst f. cbn in Hn.
      assert (((n =? 0) || (n =? 1)) = true) as -> by lia. reflexivity.
    + rewrite E. reflexivity.
  - cbn [app]. destruct (Nat.eqb f 0) eqn:Ef.
    + apply Nat.eqb_eq in Ef. subst f. cbn in Hn. lia.
    + apply Nat.eqb_neq in Ef.
      assert ((n mod 128 + 128 <? 128) = false) as -> by lia.
      rewrite lim_S in Hn by lia.
      rewrite (IH (n / 128)) by lia. f_equal. f_equal. apply ustep; [lia|auto].
Qed.

Theorem hleb_u_roundtrip n rest : n < pow64 -> hleb_u (hleb_uenc n ++ rest) = Some (n, rest).
Proof. intros H. apply hudec_uenc. rewrite lim_10. exact H. Qed.

Lemma hudec_range f : forall l n rest, wf_bytes l -> hudec f l = Some (n, rest) -> n < lim f.
Proof.
  induction f as [|f IH]; intros l n rest Hwf H; [discriminate|].
  cbn [hudec] in H. destruct l as [|b t]; [discriminate|].
  inversion Hwf as [|? ? Hb Ht]; subst. unfold wf_byte in Hb.
  destruct (Nat.eqb f 0) eqn:Ef.
  - apply Nat.eqb_eq in Ef; subst f.
    destruct ((b =? 0) || (b =? 1)) eqn:E; [|discriminate]. inversion H; subst. cbn. lia.
  - apply Nat.eqb_neq in Ef. rewrite lim_S by lia. pose proof (lim_pos f ltac:(lia)).
    destruct (b <? 128) eqn:E.
    + inversion H; subst. lia.
    + destruct (hudec f t) as [[v r]|] eqn:Ed; [|discriminate].
      inversion H; subst. apply IH in Ed; [|exact Ht]. lia.
Qed.

Lemma hleb_u_range l n rest : wf_bytes l -> hleb_u l = Some (n, rest) -> n < pow64.
Proof. intros Hwf H. apply hudec_range in H; [|exact Hwf]. rewrite lim_10 in H. exact H. Qed.

(* the rest is a proper suffix: the readers accept over-long encodings, but the loop still stops
   at the tenth byte (shift = 63) *)
Lemma hudec_rest f : forall l n rest,
  hudec f l = Some (n, rest) -> exists pre, l = pre ++ rest /\ (1 <= length pre <= f)%nat.
Proof.
  induction f as [|f IH]; intros l n rest H; [discriminate|].
  cbn [hudec] in H. destruct l as [|b t]; [discriminate|].
  destruct (Nat.eqb f 0).
  - destruct ((b =? 0) || (b =? 1)); [|discriminate]. inversion H; subst.
    exists [n]. cbn. split; [reflexivity|lia].
  - destruct (b <? 128).
    + inversion H; subst. exists [n]. cbn. split; [reflexivity|lia].
    + destruct (hudec f t) as [[v r]|] eqn:Ed; [|discriminate]. inversion H; subst.
      apply IH in Ed. destruct Ed as (pre & -> & Hl). exists (b :: pre). cbn. split; [reflexivity|lia].
Qed.

Lemma hleb_u_wf_rest l n rest : wf_bytes l -> hleb_u l = Some (n, rest) -> wf_bytes rest.
Proof.
  intros Hwf H. apply hudec_rest in H. destruct H as (pre & -> & _).
  apply wf_bytes_app in Hwf. tauto.
Qed.

(* signed: [slim] of Base/Sleb128Proofs.v bounds these values too *)
Lemma hsdec_senc f : forall z rest,
  (- slim f <= z < slim f)%Z -> hsdec f (senc f z ++ rest) = Some (z, rest).
Proof.
  induction f as [|f IH]; intros z rest Hz; [cbn in Hz; lia|].
  cbn [hsdec senc].
  destruct (Nat.eqb f 0) eqn:Ef.
  - apply Nat.eqb_eq in Ef. subst f. cbn in Hz.
    assert (z = 0 \/ z = -1)%Z as [-> | ->] by lia; reflexivity.
  - assert (f <> 0)%nat as Hf by (apply Nat.eqb_neq; exact Ef). rewrite slim_S in Hz by lia.
    destruct ((((z / 128 =? 0)%Z && (z mod 128 <? 64)%Z) || ((z / 128 =? -1)%Z && (64 <=? z mod 128)%Z))) eqn:E.
    + cbn [app].
      assert (Z.to_N (z mod 128) <? 128 = true) as -> by lia.
      f_equal. f_equal. apply sfinal_spec; lia.
    + cbn [app].
      assert (Z.to_N (z mod 128 + 128) <? 128 = false) as -> by lia.
      rewrite (IH (z / 128)%Z) by lia. f_equal. f_equal. apply sstep; [lia|auto].
Qed.

Theorem hleb_s_roundtrip z rest : in_i64 z -> hleb_s (hleb_senc z ++ rest) = Some (z, rest).
Proof.
  intros H. apply hsdec_senc. rewrite slim_10. unfold in_i64, i64_min, i64_max in H. lia.
Qed.

Lemma hsdec_range f : forall l z rest, wf_bytes l -> hsdec f l = Some (z, rest) ->
  (- slim f <= z < slim f)%Z.
Proof.
  induction f as [|f IH]; intros l z rest Hwf H; [discriminate|].
  cbn [hsdec] in H. destruct l as [|b t]; [discriminate|].
  inversion Hwf as [|? ? Hb Ht]; subst. unfold wf_byte in Hb.
  destruct (Nat.eqb f 0) eqn:Ef.
  - apply Nat.eqb_eq in Ef; subst f. cbn.
    destruct (b =? 0); [inversion H; lia|]. destruct (b =? 127); [inversion H; lia|discriminate].
  - apply Nat.eqb_neq in Ef. rewrite slim_S by lia. pose proof (slim_pos f ltac:(lia)).
    destruct (b <? 128) eqn:E.
    + injection H as Hz _. apply sfinal_spec in Hz; lia.
    + destruct (hsdec f t) as [[v r]|] eqn:Ed; [|discriminate].
      injection H as <- <-. apply IH in Ed; [|exact Ht]. lia.
Qed.

Lemma hleb_s_range l z rest : wf_bytes l -> hleb_s l = Some (z, rest) -> in_i64 z.
Proof.
  intros Hwf H. apply hsdec_range in H; [|exact Hwf]. rewrite slim_10 in H.
  unfold in_i64, i64_min, i64_max. lia.
Qed.

Lemma hsdec_rest f : forall l n rest,
  hsdec f l = Some (n, rest) -> exists pre, l = pre ++ rest /\ (1 <= length pre <= f)%nat.
Proof.
  induction f as [|f IH]; intros l n rest H; [discriminate|].
  cbn [hsdec] in H. destruct l as [|b t]; [discriminate|].
  destruct (Nat.eqb f 0).
  - destruct (b =? 0); [inversion H; subst; exists [b]; cbn; split; [reflexivity|lia]|].
    destruct (b =? 127); [inversion H; subst; exists [b]; cbn; split; [reflexivity|lia]|discriminate].
  - destruct (b <? 128).
    + inversion H; subst. exists [b]. cbn. split; [reflexivity|lia].
    + destruct (hsdec f t) as [[v r]|] eqn:Ed; [|discriminate]. inversion H; subst.
      apply IH in Ed. destruct Ed as (pre & -> & Hl). exists (b :: pre). cbn. split; [reflexivity|lia].
Qed.

Lemma hleb_s_wf_rest l n rest : wf_bytes l -> hleb_s l = Some (n, rest) -> wf_bytes rest.
Proof.
  intros Hwf H. apply hsdec_rest in H. destruct H as (pre & -> & _).
  apply wf_bytes_app in Hwf. tauto.
Qed.

Lemma senc_nonempty f z : (1 <= f)%nat -> senc f z <> [].
Proof.
  destruct f; [lia|]. intros _. cbn [senc].
  destruct (((z / 128 =? 0)%Z && (z mod 128 <? 64)%Z) || ((z / 128 =? -1)%Z && (64 <=? z mod 128)%Z)); discriminate.
Qed.

Lemma hleb_senc_nonempty z : hleb_senc z <> [].
Proof. apply senc_nonempty. lia. Qed.

Lemma hleb_uenc_nonempty n : hleb_uenc n <> [].
Proof. apply uleb_enc_nonempty. Qed.

Lemma senc_wf f z : wf_bytes (senc f z).
Proof.
  revert z; induction f as [|f IH]; intros z; cbn [senc]; [constructor|].
  destruct (((z / 128 =? 0)%Z && (z mod 128 <? 64)%Z) || ((z / 128 =? -1)%Z && (64 <=? z mod 128)%Z)).
  - constructor; [unfold wf_byte; lia|constructor].
  - constructor; [unfold wf_byte; lia|apply IH].
Qed.
