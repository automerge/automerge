(* Hexane/BoolColProofs.v — the boolean column (Hexane/BoolCol.v): load inverts save, what loads is
   the writer's output of its own runs, no panic; on a complete parse only the total count decides
   ([bool_load_counts_eq]). *)
From AM Require Import Base.Prelude Base.ListFacts Base.Leb128 Hexane.Hleb Hexane.HlebProofs Hexane.RunsProofs Hexane.BoolCol.
Local Open Scope N_scope.

Lemma btarget_val : bool_target = 32. Proof. reflexivity. Qed.
Local Opaque pow64 bool_target.

Definition bwrite (cs : list N) : bytes := flat_map hleb_uenc cs.

(* count lists the loader accepts *)
Fixpoint bw (first : bool) (cs : list N) : Prop :=
  match cs with
  | [] => True
  | c :: t => c < pow64 /\ (c = 0 -> first = true /\ t <> []) /\ bw false t
  end.

Lemma bwrite_nonempty cs : cs <> [] -> bwrite cs <> [].
Proof.
  destruct cs as [|c t]; [congruence|]. intros _ H. cbn [bwrite flat_map] in H.
  apply app_eq_nil in H. destruct H as [H _]. revert H. apply hleb_uenc_nonempty.
Qed.

Lemma bwrite_length cs : (length cs <= length (bwrite cs))%nat.
Proof.
  unfold bwrite. rewrite flat_map_concat_map.
  apply concat_length_ge. intros c _. apply hleb_uenc_nonempty.
Qed.

Lemma braw_step f first b : b <> [] ->
  bool_raw (S f) first b =
    match hleb_u b with
    | None => ([], BErr)
    | Some (c, r) =>
      if (c =? 0) && negb first then ([], BErr)
      else if (c =? 0) && (match r with [] => true | _ => false end) then ([], BErr)
      else let (cs, t) := bool_raw f false r in (c :: cs, t)
    end.
Proof. destruct b; [congruence|reflexivity]. Qed.

Lemma braw_write : forall cs fuel first,
  bw first cs -> (length cs < fuel)%nat -> bool_raw fuel first (bwrite cs) = (cs, BEnd).
Proof.
  induction cs as [|c t IH]; intros fuel first Hw Hf.
  - destruct fuel; [cbn in Hf; lia|reflexivity].
  - destruct fuel as [|fuel]; [cbn in Hf; lia|]. cbn [length] in Hf.
    cbn [bw] in Hw. destruct Hw as (Hc & Hz & Ht).
    rewrite braw_step by (apply bwrite_nonempty; discriminate).
    cbn [bwrite flat_map]. fold (bwrite t). rewrite hleb_u_roundtrip by exact Hc.
    destruct (c =? 0) eqn:E.
    + apply N.eqb_eq in E. destruct (Hz E) as [-> Hne]. cbn [negb andb].
      pose proof (bwrite_nonempty t Hne) as Hb.
      assert ((match bwrite t with [] => true | _ => false end) = false) as ->
        by (destruct (bwrite t); [congruence|reflexivity]).
      rewrite IH by (auto; lia). reflexivity.
    + cbn [andb]. rewrite IH by (auto; lia). reflexivity.
Qed.

Lemma braw_bw : forall fuel first b cs,
  wf_bytes b -> bool_raw fuel first b = (cs, BEnd) -> bw first cs /\ (b <> [] -> cs <> []).
Proof.
  induction fuel as [|fuel IH]; intros first b cs Hwf H; [cbn in H; inversion H|].
  destruct b as [|b0 bt]; [cbn in H; inversion H; split; [exact I|congruence]|].
  rewrite braw_step in H by discriminate.
  destruct (hleb_u (b0 :: bt)) as [[c r]|] eqn:Eu; [|inversion H].
  pose proof (hleb_u_range _ _ _ Hwf Eu) as Hc. pose proof (hleb_u_wf_rest _ _ _ Hwf Eu) as Hr.
  destruct ((c =? 0) && negb first) eqn:E1; [inversion H|].
  destruct ((c =? 0) && match r with [] => true | _ => false end) eqn:E2; [inversion H|].
  destruct (bool_raw fuel false r) as [cs' t] eqn:Ep. inversion H; subst.
  destruct (IH _ _ _ Hr Ep) as [Hw Hne].
  split; [|discriminate]. cbn [bw]. split; [exact Hc|]. split; [|exact Hw].
  intros ->. change (0 =? 0) with true in *. cbn [andb] in *. split.
  - destruct first; [reflexivity|discriminate].
  - apply Hne. destruct r; discriminate.
Qed.

Lemma bcount1_cases items segs done c :
  match bcount1 (items, segs, done) c with
  | Ok (items', segs', done') =>
      items' + bsum done' = items + bsum done + c /\ items' <= items + c /\ (segs' = 0 -> items' = 0)
  | Err => pow64 <= items + c
  | Panic => False
  end.
Proof.
  unfold bcount1. destruct (pow64 <=? items + c) eqn:E; [lia|].
  destruct (bool_target <=? segs + 1); unfold bsum; cbn [fold_right]; repeat split; lia.
Qed.

Lemma bcount_spec : forall cs items segs done,
  (segs = 0 -> items = 0) ->
  match bcount (items, segs, done) cs with
  | Ok (items', segs', done') =>
      items' + bsum done' = items + bsum done + bsum cs /\ (segs' = 0 -> items' = 0)
  | Err => pow64 <= items + bsum cs
  | Panic => False
  end.
Proof.
  induction cs as [|c t IH]; intros items segs done Hz.
  - cbn [bcount]. unfold bsum. cbn [fold_right]. split; [lia|exact Hz].
  - cbn [bcount]. change (bsum (c :: t)) with (c + bsum t).
    pose proof (bcount1_cases items segs done c) as H1.
    destruct (bcount1 (items, segs, done) c) as [[[i1 s1] d1]| |]; cbn [bind]; [|lia|exact H1].
    destruct H1 as (P1 & P2 & P3). specialize (IH i1 s1 d1 P3).
    destruct (bcount (i1, s1, d1) t) as [[[i2 s2] d2]| |]; [|lia|exact IH].
    destruct IH as [Q1 Q2]. split; [lia|exact Q2].
Qed.

(* the loader on a complete parse: only the total item count decides *)
Lemma bool_load_counts_eq cs t :
  bool_load_counts (cs, t) =
    if pow64 <=? bsum cs then Err else match t with BEnd => Ok (bruns false cs) | BErr => Err end.
Proof.
  unfold bool_load_counts. pose proof (bcount_spec cs 0 0 [] (fun _ => eq_refl)) as H.
  destruct (bcount (0, 0, []) cs) as [[[i s] d]| |]; cbn [bind]; [|rewrite (proj2 (N.leb_le _ _)) by lia; reflexivity|contradiction].
  destruct H as [Q1 Q2]. unfold bfinish, bsum in *. cbn [fold_right] in Q1.
  rewrite (slab_sum i s d Q2). replace (i + fold_right N.add 0 d) with (fold_right N.add 0 cs) by lia.
  destruct t, (pow64 <=? _); reflexivity.
Qed.

Lemma bruns_counts : forall (rs : list (N * bool)) v, maxruns (Some (negb v)) rs -> bruns v (map fst rs) = rs.
Proof.
  induction rs as [|[n x] t IH]; intros v H; [reflexivity|]. destruct H as (Hn & Hx & Ht).
  assert (x = v) as -> by (destruct x, v; cbn in Hx; congruence).
  cbn [map fst bruns]. assert ((n =? 0) = false) as -> by lia.
  rewrite IH by (rewrite negb_involutive; exact Ht). reflexivity.
Qed.

Lemma bw_counts : forall (rs : list (N * bool)) pv first, maxruns pv rs -> total rs < pow64 -> bw first (map fst rs).
Proof.
  induction rs as [|[n x] t IH]; intros pv first H Hs; [exact I|]. destruct H as (Hn & _ & Ht).
  cbn [total] in Hs. cbn [map fst bw]. split; [lia|]. split; [lia|]. eapply IH; eauto. lia.
Qed.

Lemma bsum_counts rs : bsum (bcounts_of_runs rs) = total rs.
Proof. destruct rs as [|[n [|]] t]; symmetry; exact (total_counts _ _). Qed.

Lemma bool_load_runs rs :
  maxruns None rs -> total rs < pow64 -> bool_load (bool_save_runs rs) = Ok rs.
Proof.
  intros Ha Hs. unfold bool_load, bool_save_runs. fold (bwrite (bcounts_of_runs rs)).
  assert (Hbw : bw true (bcounts_of_runs rs)).
  { unfold bcounts_of_runs. destruct rs as [|[n [|]] t]; [exact I| |eapply bw_counts; eauto].
    cbn [bw]. rewrite pow64_val. split; [lia|]. split; [intros _; split; [reflexivity|discriminate]|].
    eapply bw_counts; eauto. }
  rewrite braw_write; [|exact Hbw|pose proof (bwrite_length (bcounts_of_runs rs)); lia].
  rewrite bool_load_counts_eq, bsum_counts, (proj2 (N.leb_gt _ _) Hs). f_equal.
  destruct rs as [|[n [|]] t]; [reflexivity|apply (bruns_counts ((n, true) :: t) true)|apply (bruns_counts ((n, false) :: t) false)];
    apply (maxruns_hd _ _ _ _ Ha); discriminate.
Qed.

Theorem bool_load_save l : N.of_nat (length l) < pow64 -> bool_load (bool_save l) = Ok (bgroup l).
Proof.
  intros Hl. apply bool_load_runs; [exact (maxruns_grp _ _ Bool.eqb_true_iff l)|].
  rewrite <- (total_grp _ Bool.eqb l) in Hl. exact Hl.
Qed.

Lemma bruns_alt : forall t v, bw false t -> maxruns (Some (negb v)) (bruns v t) /\ map fst (bruns v t) = t.
Proof.
  induction t as [|c t IH]; intros v H; [split; [exact I|reflexivity]|].
  cbn [bw] in H. destruct H as (Hc & Hz & Ht).
  assert (c <> 0) by (intros ->; destruct (Hz eq_refl); discriminate).
  cbn [bruns]. assert ((c =? 0) = false) as -> by lia.
  destruct (IH (negb v) Ht) as [A B]. rewrite negb_involutive in A.
  cbn [maxruns map fst]. rewrite B. repeat split; auto; [lia|destruct v; discriminate].
Qed.

Lemma total_bruns : forall cs v, total (bruns v cs) = bsum cs.
Proof.
  induction cs as [|c t IH]; intros v; [reflexivity|]. cbn [bruns]. change (bsum (c :: t)) with (c + bsum t).
  destruct (c =? 0) eqn:E; cbn [total]; rewrite IH; lia.
Qed.

(* a leading zero count stands for an absent run of false *)
Lemma bruns_counts_inv cs : bw true cs ->
  bcounts_of_runs (bruns false cs) = cs /\ maxruns None (bruns false cs).
Proof.
  destruct cs as [|c t]; [split; [reflexivity|exact I]|]. intros (Hc & Hz & Ht).
  destruct (bruns_alt t true Ht) as [A B]. cbn [bruns negb] in *. destruct (c =? 0) eqn:E0.
  - apply N.eqb_eq in E0. subst c. destruct (Hz eq_refl) as [_ Hne].
    destruct t as [|c1 t1]; [congruence|]. destruct Ht as (_ & Hz1 & _). cbn [bruns] in *.
    destruct (c1 =? 0) eqn:E1; [apply N.eqb_eq in E1; destruct (Hz1 E1); discriminate|].
    unfold bcounts_of_runs. rewrite B. split; [reflexivity|]. apply (maxruns_hd _ _ _ _ A). discriminate.
  - unfold bcounts_of_runs. cbn [map fst maxruns]. rewrite B.
    split; [reflexivity|]. repeat split; [lia|discriminate|exact A].
Qed.

Theorem bool_load_canonical b rs :
  wf_bytes b -> bool_load b = Ok rs ->
  bool_raw (S (length b)) true b = (bcounts_of_runs rs, BEnd) /\
  maxruns None rs /\ total rs < pow64.
Proof.
  intros Hwf. unfold bool_load.
  destruct (bool_raw (S (length b)) true b) as [cs t] eqn:Ep. rewrite bool_load_counts_eq.
  destruct (pow64 <=? bsum cs) eqn:Hs; [discriminate|]. destruct t; [|discriminate].
  intros [= <-]. apply N.leb_gt in Hs. rewrite total_bruns.
  destruct (bruns_counts_inv cs (proj1 (braw_bw _ _ _ _ Hwf Ep))) as [E A]. rewrite E. auto.
Qed.

Theorem bool_load_group b rs : wf_bytes b -> bool_load b = Ok rs -> bgroup (bexpand rs) = rs.
Proof.
  intros Hwf H. destruct (bool_load_canonical b rs Hwf H) as (_ & Ha & _).
  exact (grp_exp _ _ Bool.eqb_true_iff rs None Ha).
Qed.

Theorem bool_load_no_panic b : bool_load b <> Panic.
Proof.
  unfold bool_load. destruct (bool_raw (S (length b)) true b) as [cs t].
  rewrite bool_load_counts_eq. destruct (pow64 <=? bsum cs), t; discriminate.
Qed.
