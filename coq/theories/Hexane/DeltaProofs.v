(* Hexane/DeltaProofs.v — proofs about the delta column model (Hexane/Delta.v).

   The delta loader is the i64 RLE loader plus the aggregate / domain checks, so it accepts
   a subset of what the RLE loader accepts, with the same runs; everything proved for RLE
   columns (canonical form, re-save) transfers.  That the aggregate and domain checks accept
   the writer's own output is Hexane/DeltaAccept.v, for value lists inside a window no wider
   than i64::MAX; beyond that window the round trip is checked differentially only. *)
From AM Require Import Base.Prelude Base.Leb128 Hexane.Hleb Hexane.HlebProofs Hexane.Rle Hexane.RleProofs Hexane.Delta.
Local Open Scope N_scope.

Lemma realize_deltas : forall vs r, realize r (deltas r vs) = vs.
Proof.
  induction vs as [|[v|] t IH]; intros r; cbn [deltas realize]; [reflexivity| |].
  - replace (r + (v - r))%Z with v by lia. rewrite IH. reflexivity.
  - rewrite IH. reflexivity.
Qed.

Lemma deltas_realize : forall ds r, deltas r (realize r ds) = ds.
Proof.
  induction ds as [|[d|] t IH]; intros r; cbn [deltas realize]; [reflexivity| |].
  - replace (r + d - r)%Z with d by lia. rewrite IH. reflexivity.
  - rewrite IH. reflexivity.
Qed.

Lemma deltas_length : forall vs r, length (deltas r vs) = length vs.
Proof. induction vs as [|[v|] t IH]; intros r; cbn [deltas length]; auto. Qed.

Lemma accumulate_cases w n x :
  match accumulate w n x with Ok w' => a_len w' = a_len w + n | Err => True | Panic => False end.
Proof.
  unfold accumulate. cbv zeta. destruct x as [v|].
  - destruct (pow63 <=? n); [exact I|]. destruct (negb _); [exact I|]. destruct (_ || _); [exact I|].
    destruct (pow64 <=? _); [exact I|]. destruct (a_len w =? 0); reflexivity.
  - destruct (pow64 <=? _); [exact I|]. destruct (a_len w =? 0); reflexivity.
Qed.

Lemma accumulate_len w n x w' : accumulate w n x = Ok w' -> a_len w' = a_len w + n.
Proof. intros H. pose proof (accumulate_cases w n x) as C. rewrite H in C. exact C. Qed.

Lemma accumulate_no_panic w n x : accumulate w n x <> Panic.
Proof. intros H. pose proof (accumulate_cases w n x) as C. rewrite H in C. exact C. Qed.

(* the aggregate pass over a run list; [k] = segments in the current slab *)
Fixpoint aggs (k : N) (w : agg) (ws : list agg) (rs : list (N * option Z)) : res (agg * list agg) :=
  match rs with
  | [] => Ok (w, ws)
  | (n, x) :: t =>
    let* w' := accumulate w n x in
    if k + 1 =? rle_target then aggs 0 agg0 (w' :: ws) t else aggs (k + 1) w' ws t
  end.

Section DeltaP.
  Variable nullable : bool.
  Variable lo hi : Z.

  Lemma dstep_eq c w ws s :
    dstep nullable (c, w, ws) s =
      let* c' := step Z Z.eqb nullable c s in
      match seg_run Z s with
      | None => Ok (c', w, ws)
      | Some (n, x) =>
          let* w' := accumulate w n x in
          if c_segs Z c' =? 0 then Ok (c', agg0, w' :: ws) else Ok (c', w', ws)
      end.
  Proof. destruct s; reflexivity. Qed.

  (* the delta loader's loop is the RLE loader's loop and, beside it, the aggregate pass
     over the runs: the slab cuts of the two fall at the same segments, and neither the
     checks nor the aggregates can panic, so the first failure of either is an Err *)
  Theorem dcheck_eq : forall ss c w ws,
    dcheck nullable (c, w, ws) ss =
      match check Z Z.eqb nullable c ss, aggs (c_segs Z c) w ws (runs_of Z ss) with
      | Ok c', Ok (w', ws') => Ok (c', w', ws')
      | _, _ => Err
      end.
  Proof.
    induction ss as [|s t IH]; intros c w ws; [reflexivity|].
    cbn [dcheck check runs_of]. rewrite dstep_eq.
    destruct (step_cases Z Z.eqb nullable c s) as [-> | [c1 Hs]]; [reflexivity|].
    rewrite Hs. cbn [bind]. apply step_run in Hs. destruct (seg_run Z s) as [[n x]|].
    - destruct Hs as (p & l & Hs). apply count_seg_inv in Hs. destruct Hs as (_ & _ & _ & Hk & _).
      cbn [aggs]. pose proof (accumulate_no_panic w n x) as Hn.
      destruct (accumulate w n x) as [w1| |]; cbn [bind];
        [|destruct (check Z Z.eqb nullable c1 t); reflexivity|congruence].
      rewrite Hk. destruct (c_segs Z c + 1 =? rle_target).
      + change (0 =? 0) with true. cbn [bind]. rewrite IH, Hk. reflexivity.
      + assert ((c_segs Z c + 1 =? 0) = false) as -> by lia. cbn [bind]. rewrite IH, Hk. reflexivity.
    - subst c1. cbn [bind]. rewrite IH. reflexivity.
  Qed.

  (* whatever the delta loader accepts, the i64 RLE loader accepts, with the same runs; otherwise
     it fails *)
  Lemma delta_load_cases b :
    match delta_load nullable lo hi b with
    | Ok rs => i64_load nullable b = Ok rs
    | Err => True
    | Panic => False
    end.
  Proof.
    unfold delta_load, i64_load, rle_load, delta_load_segs, rle_load_segs.
    destruct (raw_parse Z i64_dec (S (length b)) 0 b) as [ss t]. rewrite dcheck_eq.
    destruct (check Z Z.eqb nullable (cst_init Z) ss) as [c| |]; try exact I.
    destruct (aggs _ _ _ _) as [[w ws]| |]; cbn [bind]; try exact I.
    destruct t; [|exact I]. unfold dfinish, finish.
    destruct (u64_max <=? _); cbn [bind]; [exact I|]. destruct (domain_ok lo hi 0 _); [reflexivity|exact I].
  Qed.

  Theorem delta_load_rle b rs : delta_load nullable lo hi b = Ok rs -> i64_load nullable b = Ok rs.
  Proof. intros H. pose proof (delta_load_cases b) as C. rewrite H in C. exact C. Qed.

  Theorem delta_load_no_panic b : delta_load nullable lo hi b <> Panic.
  Proof. intros H. pose proof (delta_load_cases b) as C. rewrite H in C. exact C. Qed.
End DeltaP.
