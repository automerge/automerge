(* Hexane/RunsProofs.v — run lists over any type with a decidable equality: [grp] cuts a
   list into its maximal runs of equal neighbours, [exp] writes the runs out again, and
   [maxruns] says when a run list is the [grp] of something.  [Rle.group] / [Rle.expand]
   (at [option V]) and [BoolCol.bgroup] / [BoolCol.bexpand] are [grp] / [exp] up to
   conversion, so every lemma here applies to them as it stands. *)
From AM Require Import Base.Prelude.
Local Open Scope N_scope.

Lemma pow64_val : pow64 = 18446744073709551616. Proof. reflexivity. Qed.

(* the loaders count items per slab and sum the slabs at the end; the open slab is
   listed only when it holds a segment, and it holds items only when it holds a segment *)
Lemma slab_sum (items segs : N) (done : list N) :
  (segs = 0 -> items = 0) ->
  fold_right N.add 0 (if 0 <? segs then items :: done else done) = items + fold_right N.add 0 done.
Proof.
  intros Hz. destruct (0 <? segs) eqn:E; [reflexivity|]. rewrite Hz by lia. reflexivity.
Qed.

Section Runs.
  Variable A : Type.

  Fixpoint exp (rs : list (N * A)) : list A :=
    match rs with
    | [] => []
    | (n, x) :: t => repeat x (N.to_nat n) ++ exp t
    end.

  Fixpoint total (rs : list (N * A)) : N :=
    match rs with [] => 0 | (n, _) :: t => n + total t end.

  (* no empty run, no two neighbouring runs of the same value; [pv]: the value before *)
  Fixpoint maxruns (pv : option A) (rs : list (N * A)) : Prop :=
    match rs with
    | [] => True
    | (n, x) :: t => 1 <= n /\ pv <> Some x /\ maxruns (Some x) t
    end.

  Lemma total_counts rs : total rs = fold_right N.add 0 (map fst rs).
  Proof. induction rs as [|[n x] t IH]; cbn [total map fst fold_right]; congruence. Qed.

  Lemma maxruns_hd pv pv' rs :
    maxruns pv rs -> match rs with (_, x) :: _ => pv' <> Some x | [] => True end -> maxruns pv' rs.
  Proof. destruct rs as [|[n x] t]; cbn [maxruns]; tauto. Qed.

  Variable eqb : A -> A -> bool.

  Fixpoint grp (l : list A) : list (N * A) :=
    match l with
    | [] => []
    | x :: t =>
      match grp t with
      | (n, y) :: r => if eqb x y then (n + 1, y) :: r else (1, x) :: (n, y) :: r
      | [] => [(1, x)]
      end
    end.

  Lemma total_grp l : total (grp l) = N.of_nat (length l).
  Proof.
    induction l as [|x t IH]; [reflexivity|]. cbn [grp length].
    destruct (grp t) as [|[n y] r]; cbn [total] in *; [lia|].
    destruct (eqb x y); cbn [total]; lia.
  Qed.

  Lemma grp_Forall (P : A -> Prop) l : Forall P l -> Forall (fun r => P (snd r)) (grp l).
  Proof.
    induction 1 as [|x t Hx _ IH]; [constructor|]. cbn [grp].
    destruct (grp t) as [|[n y] r]; [repeat constructor; exact Hx|].
    destruct (eqb x y); [|constructor; [exact Hx|exact IH]].
    inversion IH; subst. constructor; assumption.
  Qed.

  Hypothesis eqb_spec : forall a b, eqb a b = true <-> a = b.

  Lemma exp_grp l : exp (grp l) = l.
  Proof.
    induction l as [|x t IH]; [reflexivity|]. cbn [grp].
    destruct (grp t) as [|[n y] r].
    - cbn in IH. subst t. reflexivity.
    - destruct (eqb x y) eqn:E.
      + apply eqb_spec in E. subst y. cbn [exp] in *.
        replace (N.to_nat (n + 1)) with (S (N.to_nat n)) by lia. cbn [repeat app]. rewrite IH. reflexivity.
      + cbn [exp] in *. change (N.to_nat 1) with 1%nat. cbn [repeat app]. rewrite IH. reflexivity.
  Qed.

  Lemma grp_head x t : exists n r, grp (x :: t) = (n, x) :: r.
  Proof.
    cbn [grp]. destruct (grp t) as [|[n y] r]; [eauto|].
    destruct (eqb x y) eqn:E; [apply eqb_spec in E; subst; eauto|eauto].
  Qed.

  Lemma maxruns_grp l : maxruns None (grp l).
  Proof.
    induction l as [|x t IH]; [exact I|]. cbn [grp].
    destruct (grp t) as [|[n y] r]; cbn [maxruns] in *.
    - repeat split; [lia|discriminate].
    - destruct IH as (Hn & _ & Hr). destruct (eqb x y) eqn:E; cbn [maxruns].
      + repeat split; [lia|discriminate|exact Hr].
      + repeat split; try discriminate; try lia; [|exact Hr].
        intros [= ->]. rewrite (proj2 (eqb_spec y y) eq_refl) in E. discriminate.
  Qed.

  (* a run of [x] in front of a list whose runs do not start with [x] *)
  Lemma grp_repeat x : forall k l,
    (match grp l with (_, y) :: _ => x <> y | [] => True end) ->
    grp (repeat x (S k) ++ l) = (N.of_nat (S k), x) :: grp l.
  Proof.
    induction k as [|k IH]; intros l Hg.
    - cbn [repeat app grp]. destruct (grp l) as [|[m y] r]; [reflexivity|].
      destruct (eqb x y) eqn:E; [apply eqb_spec in E; contradiction|reflexivity].
    - change (repeat x (S (S k)) ++ l) with (x :: (repeat x (S k) ++ l)). cbn [grp].
      rewrite (IH l Hg), (proj2 (eqb_spec x x) eq_refl). f_equal. f_equal. lia.
  Qed.

  Lemma grp_exp : forall rs pv, maxruns pv rs -> grp (exp rs) = rs.
  Proof.
    induction rs as [|[n x] t IH]; intros pv H; [reflexivity|]. destruct H as (Hn & _ & Ht).
    cbn [exp]. destruct (N.to_nat n) as [|k] eqn:Ek; [lia|].
    rewrite grp_repeat; rewrite (IH _ Ht); [f_equal; f_equal; lia|].
    destruct t as [|[m y] r]; [exact I|]. destruct Ht as (_ & H & _). congruence.
  Qed.
End Runs.

Arguments exp {A}. Arguments grp {A}. Arguments total {A}. Arguments maxruns {A}.
