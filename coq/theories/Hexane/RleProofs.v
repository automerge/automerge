(* Hexane/RleProofs.v — the RLE column model (Hexane/Rle.v) over an abstract value codec:
   loading what was saved gives the column back, whatever loads is the canonical encoding of
   its values, and re-saving it loads to the same column.  The loader is  parse, then check,
   then finish;  the writer is  group, then [segs_aux], then [write_segs].  Between them stand
   two predicates: [canon] on run lists (what [group] produces, and what [check] accepts) and
   [framed] on segment lists (what [segs_aux] produces, and what a complete parse yields).
   The codec laws for u64 / i64 / String / Vec<u8> are at the end. *)
From AM Require Import Base.Prelude Base.ListFacts Base.Leb128 Hexane.Hleb Hexane.HlebProofs Hexane.Rle.
From AM Require Export Hexane.RunsProofs.
Local Open Scope N_scope.
Local Arguments Z.mul : simpl never.
Local Arguments Z.add : simpl never.
Local Arguments Z.sub : simpl never.
Local Arguments Z.opp : simpl never.
Local Arguments Z.ltb : simpl never.
Local Arguments Z.eqb : simpl never.
Local Arguments Z.to_N : simpl never.
Local Arguments Z.of_N : simpl never.

Lemma pow63_val : pow63 = 9223372036854775808. Proof. reflexivity. Qed.
Lemma i64_min_val : i64_min = (-9223372036854775808)%Z. Proof. reflexivity. Qed.
Lemma i64_max_val : i64_max = 9223372036854775807%Z. Proof. reflexivity. Qed.
Lemma rle_target_val : rle_target = 32. Proof. reflexivity. Qed.
Lemma u64_max_val : u64_max = 18446744073709551615. Proof. reflexivity. Qed.
Global Opaque pow63 pow64 i64_min i64_max rle_target u64_max.

Lemma hleb_s_zero r : hleb_s (0 :: r) = Some (0%Z, r).
Proof. reflexivity. Qed.

Local Arguments PNone {V}.
Local Arguments PRun {V}.
Local Arguments PLit {V}.
Local Arguments PNull {V}.

Lemma lit_len_le V rs : lit_len V rs <= total rs.
Proof.
  induction rs as [|[n [v|]] t IH]; cbn [lit_len total]; try lia.
  destruct (n =? 1) eqn:E; lia.
Qed.

Lemma segs_aux_head V rs :
  0 < lit_len V rs -> segs_aux V false rs = RHead (lit_len V rs) :: segs_aux V true rs.
Proof.
  destruct rs as [|[n [v|]] t]; cbn [lit_len segs_aux]; try lia.
  destruct (n =? 1); [reflexivity|lia].
Qed.

(* the checks and the counters need no codec *)
Section RleCheck.
  Variable V : Type.
  Variable veqb : V -> V -> bool.
  Variable nullable : bool.

  Notation rseg := (rseg V).
  Notation check := (check V veqb nullable).
  Notation step := (step V veqb nullable).
  Notation validate := (validate V veqb nullable).
  Notation count_seg := (count_seg V).
  Notation finish := (finish V).
  Notation cst := (cst V).
  Notation segs_aux := (segs_aux V).
  Notation lit_len := (lit_len V).
  Notation group := (group V veqb).
  Notation expand := (expand V).
  Notation oeqb := (oeqb V veqb).
  Notation sumN := Rle.sumN.

  (* the slab length saturates; the sum of the slab lengths is what [finish] tests *)
  Lemma count_seg_inv st prev plit n x st' :
    count_seg st prev plit n x = Ok st' ->
    c_prev V st' = prev /\ c_plit V st' = plit /\ c_out V st' = (n, x) :: c_out V st /\
    c_segs V st' = (if c_segs V st + 1 =? rle_target then 0 else c_segs V st + 1) /\
    (c_segs V st' = 0 -> c_len V st' = 0) /\
    c_len V st' + sumN (c_done V st') = N.min (c_len V st + n) u64_max + sumN (c_done V st).
  Proof.
    unfold Rle.count_seg.
    destruct (c_segs V st + 1 =? rle_target) eqn:E; intros H; inversion H; subst;
      cbn [c_prev c_plit c_out c_segs c_len c_done]; unfold Rle.sumN; cbn [fold_right]; repeat split; lia.
  Qed.

  Lemma count_seg_ok st prev plit n x : exists st', count_seg st prev plit n x = Ok st'.
  Proof.
    unfold Rle.count_seg. destruct (c_segs V st + 1 =? rle_target); eexists; reflexivity.
  Qed.

  Lemma finish_eq st : (c_segs V st = 0 -> c_len V st = 0) ->
    finish st = if u64_max <=? c_len V st + sumN (c_done V st) then Err else Ok (rev (c_out V st)).
  Proof. intros Hz. unfold Rle.finish, Rle.sumN. rewrite (slab_sum _ _ _ Hz). reflexivity. Qed.

  Lemma finish_inv st rs : finish st = Ok rs -> rs = rev (c_out V st).
  Proof.
    unfold Rle.finish. destruct (u64_max <=? _); [discriminate|]. intros H; inversion H; reflexivity.
  Qed.

  Definition seg_run (s : rseg) : option (N * option V) :=
    match s with
    | RHead _ => None
    | RLit v => Some (1, Some v)
    | RRun n v => Some (n, Some v)
    | RNull n => Some (n, None)
    end.

  Fixpoint runs_of (ss : list rseg) : list (N * option V) :=
    match ss with
    | [] => []
    | s :: t => match seg_run s with Some r => r :: runs_of t | None => runs_of t end
    end.

  Lemma runs_of_segs_aux : forall rs inlit, runs_of (segs_aux inlit rs) = rs.
  Proof.
    induction rs as [|[n [v|]] t IH]; intros inlit; [reflexivity| |].
    - cbn [Rle.segs_aux]. destruct (n =? 1) eqn:E.
      + apply N.eqb_eq in E. subst n. destruct inlit; cbn [app runs_of seg_run]; rewrite IH; reflexivity.
      + cbn [runs_of seg_run]. rewrite IH. reflexivity.
    - cbn [Rle.segs_aux runs_of seg_run]. rewrite IH. reflexivity.
  Qed.

  Lemma step_inv st s st' : step st s = Ok st' ->
    validate st s = true /\
    match s with
    | RHead _ => st' = mk_cst V (c_prev V st) None (c_len V st) (c_segs V st) (c_done V st) (c_out V st)
    | RLit v => count_seg st (PLit v) (Some v) 1 (Some v) = Ok st'
    | RRun n v => count_seg st (PRun v) (c_plit V st) n (Some v) = Ok st'
    | RNull n => count_seg st PNull (c_plit V st) n None = Ok st'
    end.
  Proof.
    unfold Rle.step. destruct (validate st s); cbn [negb]; [|discriminate].
    destruct s; intros H; split; auto. inversion H; reflexivity.
  Qed.

  Lemma step_run st s st' : step st s = Ok st' ->
    match seg_run s with
    | Some (n, x) => exists p l, count_seg st p l n x = Ok st'
    | None => st' = mk_cst V (c_prev V st) None (c_len V st) (c_segs V st) (c_done V st) (c_out V st)
    end.
  Proof. intros H. apply step_inv in H. destruct H as [_ H]. destruct s; cbn [seg_run]; eauto. Qed.

  Lemma check_cons st s t st' : check st (s :: t) = Ok st' ->
    exists st1, step st s = Ok st1 /\ check st1 t = Ok st'.
  Proof. apply bind_ok. Qed.

  (* the runs come out in order; up to saturation, the slab lengths add up to their items *)
  Lemma check_out : forall ss st st', check st ss = Ok st' ->
    c_out V st' = rev (runs_of ss) ++ c_out V st /\
    ((c_segs V st = 0 -> c_len V st = 0) ->
     (c_segs V st' = 0 -> c_len V st' = 0) /\
     N.min (c_len V st' + sumN (c_done V st')) u64_max =
     N.min (c_len V st + sumN (c_done V st) + total (runs_of ss)) u64_max).
  Proof.
    induction ss as [|s t IH]; intros st st' H.
    - inversion H; subst. split; [reflexivity|]. intros Hz. split; [exact Hz|].
      cbn [runs_of total]. f_equal. lia.
    - apply check_cons in H. destruct H as (st1 & Hs & Hc). apply step_run in Hs.
      apply IH in Hc. destruct Hc as (Q1 & Q2). cbn [runs_of].
      destruct (seg_run s) as [[n x]|].
      + destruct Hs as (p & l & Hs). apply count_seg_inv in Hs. destruct Hs as (_ & _ & P3 & _ & P5 & P6).
        split; [rewrite Q1, P3; cbn [rev]; rewrite <- app_assoc; reflexivity|].
        intros _. destruct (Q2 P5) as [Q3 Q4]. split; [exact Q3|]. rewrite Q4. cbn [total]. lia.
      + subst st1. split; [exact Q1|exact Q2].
  Qed.

  Lemma step_ok st s : validate st s = true -> exists st1, step st s = Ok st1.
  Proof.
    unfold Rle.step. intros ->. destruct s; [eexists; reflexivity|apply count_seg_ok..].
  Qed.

  Lemma step_cases st s : step st s = Err \/ exists st1, step st s = Ok st1.
  Proof.
    destruct (validate st s) eqn:E; [right; apply step_ok; exact E|].
    left. unfold Rle.step. rewrite E. reflexivity.
  Qed.

  Lemma check_no_panic : forall ss st, check st ss <> Panic.
  Proof.
    induction ss as [|s t IH]; intros st; [discriminate|]. cbn [Rle.check].
    destruct (step_cases st s) as [-> | [st1 ->]]; cbn [bind]; [discriminate|apply IH].
  Qed.

  Lemma check_next st s t :
    validate st s = true ->
    (forall st1, step st s = Ok st1 -> exists st', check st1 t = Ok st') ->
    exists st', check st (s :: t) = Ok st'.
  Proof.
    intros Hv H. destruct (step_ok st s Hv) as [st1 Hs]. cbn [Rle.check]. rewrite Hs. exact (H st1 Hs).
  Qed.

  Definition lastv (p : pseg V) : option (option V) :=
    match p with
    | PNone => None
    | PRun v | PLit v => Some (Some v)
    | PNull => Some None
    end.

  Fixpoint canon (pv : option (option V)) (rs : list (N * option V)) : Prop :=
    match rs with
    | [] => True
    | (n, x) :: t => 1 <= n /\ pv <> Some x /\ (x = None -> nullable = true) /\ canon (Some x) t
    end.

  Definition nullok (x : option V) : Prop := x = None -> nullable = true.

  Hypothesis veqb_spec : forall a b, veqb a b = true <-> a = b.

  Lemma veqb_neq a b : veqb a b = false <-> a <> b.
  Proof.
    split.
    - intros H E. apply veqb_spec in E. congruence.
    - intros H. destruct (veqb a b) eqn:E; [apply veqb_spec in E; contradiction|reflexivity].
  Qed.
  Lemma oeqb_spec a b : oeqb a b = true <-> a = b.
  Proof. exact (option_eqb_spec veqb veqb_spec a b). Qed.

  (* [group] / [expand] are [grp] / [exp] at [option V] *)
  Lemma expand_group l : expand (group l) = l.
  Proof. exact (exp_grp _ _ oeqb_spec l). Qed.

  Lemma group_head x t : exists n r, group (x :: t) = (n, x) :: r.
  Proof. exact (grp_head _ _ oeqb_spec x t). Qed.

  Lemma total_group l : total (group l) = N.of_nat (length l).
  Proof. exact (total_grp _ _ l). Qed.

  Lemma canon_maxruns : forall rs pv,
    canon pv rs <-> maxruns pv rs /\ Forall (fun r => nullok (snd r)) rs.
  Proof.
    induction rs as [|[n x] t IH]; intros pv; cbn [canon maxruns]; [split; auto|].
    rewrite IH, Forall_cons_iff. unfold nullok. cbn [snd]. tauto.
  Qed.

  Lemma canon_group l : Forall nullok l -> canon None (group l).
  Proof.
    intros H. apply canon_maxruns.
    split; [exact (maxruns_grp _ _ oeqb_spec l)|exact (grp_Forall _ _ nullok l H)].
  Qed.

  Lemma group_expand rs pv : canon pv rs -> group (expand rs) = rs.
  Proof. intros H. apply canon_maxruns in H. exact (grp_exp _ _ oeqb_spec rs pv (proj1 H)). Qed.

  Lemma differs_iff p v : differs V veqb p v = true <-> lastv p <> Some (Some v).
  Proof.
    unfold Rle.differs. destruct p as [|x|x|]; cbn [lastv];
      try (split; [intros _; discriminate|reflexivity]);
      rewrite negb_true_iff, veqb_neq; split; congruence.
  Qed.

  (* [inlit]: a literal run is open, either [lit] of its values are still to come after
     the header, or the previous segment was one of them *)
  Definition st_inv (st : cst) (lit : N) (pv : option (option V)) (inlit : bool) : Prop :=
    lastv (c_prev V st) = pv /\
    if inlit then match c_plit V st with
                  | Some p => c_prev V st = PLit p
                  | None => 0 < lit /\ forall v, c_prev V st <> PLit v
                  end
    else lit = 0 /\ forall v, c_prev V st <> PLit v.

  Lemma st_inv_init : st_inv (cst_init V) 0 None false.
  Proof. split; [reflexivity|]. split; [reflexivity|discriminate]. Qed.

  (* one step of [check] read on (lit, pv, inlit), for a segment that fits the literal
     count as in [framed] below: this is all the two inductions need of the state *)
  Lemma validate_st_inv st lit pv inlit s :
    st_inv st lit pv inlit -> match s with RLit _ => 0 < lit | _ => lit = 0 end ->
    validate st s = true <->
    match s with
    | RHead n => n <> 0 /\ inlit = false
    | RLit v => pv <> Some (Some v)
    | RRun n v => 2 <= n /\ pv <> Some (Some v)
    | RNull n => n <> 0 /\ pv <> Some None /\ nullable = true
    end.
  Proof.
    unfold Rle.validate. intros [<- Hin] Hfit. destruct s as [n|v|n v|n].
    - rewrite andb_true_iff, negb_true_iff, N.eqb_neq. subst lit.
      assert (Hp : match c_prev V st with PLit _ => false | _ => true end = negb inlit).
      { destruct inlit; [destruct (c_plit V st) as [p|]; [rewrite Hin; reflexivity|lia]|].
        destruct (c_prev V st) as [|x|x|]; try reflexivity. destruct (proj2 Hin x eq_refl). }
      rewrite Hp. destruct inlit; cbn [negb]; intuition congruence.
    - destruct inlit; [|lia]. destruct (c_plit V st) as [p|]; [|apply differs_iff].
      rewrite Hin, negb_true_iff, veqb_neq. cbn [lastv]. split; congruence.
    - rewrite andb_true_iff, N.leb_le, differs_iff. reflexivity.
    - rewrite !andb_true_iff, negb_true_iff, N.eqb_neq.
      destruct (c_prev V st); cbn [lastv]; intuition congruence.
  Qed.

  Lemma step_next st lit pv inlit s st1 :
    st_inv st lit pv inlit -> step st s = Ok st1 ->
    match s with
    | RHead n => st_inv st1 n pv true
    | RLit v => st_inv st1 (lit - 1) (Some (Some v)) true
    | RRun _ v => st_inv st1 0 (Some (Some v)) false
    | RNull _ => st_inv st1 0 (Some None) false
    end.
  Proof.
    intros [Hlast Hin] Hs. apply step_inv in Hs. destruct Hs as [Hv Hs].
    destruct s as [n|v|n v|n]; [subst st1|apply count_seg_inv in Hs; destruct Hs as (P1 & P2 & _); unfold st_inv; rewrite P1..].
    - cbn [Rle.validate] in Hv. apply andb_true_iff in Hv. destruct Hv as [H1 H2].
      split; [exact Hlast|]. cbn. split; [lia|]. intros v E. rewrite E in H2. discriminate.
    - rewrite P2. split; reflexivity.
    - split; [reflexivity|]. split; [reflexivity|discriminate].
    - split; [reflexivity|]. split; [reflexivity|discriminate].
  Qed.

  Lemma canon_checks : forall rs st pv (inlit : bool),
    canon pv rs -> st_inv st (if inlit then lit_len rs else 0) pv inlit ->
    exists st', check st (segs_aux inlit rs) = Ok st'.
  Proof.
    induction rs as [|[n x] t IH]; intros st pv inlit Hc; [exists st; reflexivity|].
    destruct Hc as (Hn & Hpv & Hnull & Hc).
    destruct x as [v|]; cbn [Rle.segs_aux Rle.lit_len].
    - destruct (n =? 1) eqn:En.
      + (* the literal value itself, after the header or after the previous literal *)
        assert (Hlit : forall st0, st_inv st0 (1 + lit_len t) pv true ->
                  exists st', check st0 (RLit v :: segs_aux true t) = Ok st').
        { intros st0 H0. apply check_next.
          - apply (validate_st_inv _ _ _ _ _ H0); [lia|exact Hpv].
          - intros st1 Hs1. apply (step_next _ _ _ _ _ _ H0) in Hs1.
            replace (1 + lit_len t - 1) with (lit_len t) in Hs1 by lia. exact (IH st1 _ true Hc Hs1). }
        destruct inlit; cbn [app]; [exact (Hlit st)|]. intros Hi. apply check_next.
        * apply (validate_st_inv _ _ _ _ _ Hi); [reflexivity|]. split; [lia|reflexivity].
        * intros st1 Hs1. exact (Hlit st1 (step_next _ _ _ _ _ _ Hi Hs1)).
      + intros Hi. assert (Hi0 : st_inv st 0 pv inlit) by (destruct inlit; exact Hi). apply check_next.
        * apply (validate_st_inv _ _ _ _ _ Hi0); [reflexivity|]. split; [lia|exact Hpv].
        * intros st1 Hs1. exact (IH st1 _ false Hc (step_next _ _ _ _ _ _ Hi0 Hs1)).
    - intros Hi. assert (Hi0 : st_inv st 0 pv inlit) by (destruct inlit; exact Hi). apply check_next.
      + apply (validate_st_inv _ _ _ _ _ Hi0); [reflexivity|]. repeat split; [lia|exact Hpv|exact (Hnull eq_refl)].
      + intros st1 Hs1. exact (IH st1 _ false Hc (step_next _ _ _ _ _ _ Hi0 Hs1)).
  Qed.

  Lemma check_save_runs rs : canon None rs -> total rs < u64_max ->
    exists st', check (cst_init V) (segs_aux false rs) = Ok st' /\ finish st' = Ok rs.
  Proof.
    intros Hc Ht. destruct (canon_checks rs (cst_init V) None false Hc st_inv_init) as [st' Q].
    exists st'. split; [exact Q|].
    destruct (check_out _ _ _ Q) as [Qo Qz]. destruct (Qz (fun _ => eq_refl)) as [Qs Ql].
    rewrite runs_of_segs_aux in Qo, Ql. rewrite finish_eq by exact Qs.
    rewrite Qo. cbn [Rle.cst_init c_out c_len c_done] in Ql |- *. rewrite app_nil_r, rev_involutive.
    unfold Rle.sumN in *. cbn [fold_right] in Ql.
    rewrite (proj2 (N.leb_gt _ _)) by lia. reflexivity.
  Qed.

  Variable wfv : V -> Prop.

  Fixpoint framed (lit : N) (ss : list rseg) : Prop :=
    match ss with
    | [] => lit = 0
    | RLit v :: t => 0 < lit /\ wfv v /\ framed (lit - 1) t
    | RHead n :: t => lit = 0 /\ 0 < n < pow63 /\ framed n t
    | RRun n v :: t => lit = 0 /\ 0 < n < pow63 /\ wfv v /\ framed 0 t
    | RNull n :: t => lit = 0 /\ n < pow64 /\ framed 0 t
    end.

  Lemma segs_framed : forall (rs : list (N * option V)) pv (inlit : bool),
    canon pv rs -> Forall (fun r => match snd r with Some v => wfv v | None => True end) rs ->
    total rs < pow63 ->
    framed (if inlit then lit_len rs else 0) (segs_aux inlit rs).
  Proof.
    clear veqb veqb_spec. induction rs as [|[n x] t IH]; intros pv inlit Hc Hok Ht.
    - destruct inlit; reflexivity.
    - inversion Hok as [|? ? Hv Hok']; subst. cbn [snd] in Hv. cbn [total] in Ht.
      destruct Hc as (Hn & _ & _ & Hc). pose proof (lit_len_le V t) as Hll.
      destruct x as [v|].
      + cbn [Rle.segs_aux Rle.lit_len]. destruct (n =? 1) eqn:En.
        * assert (Hl : framed (1 + lit_len t) (RLit v :: segs_aux true t)).
          { cbn [framed]. split; [lia|]. split; [exact Hv|].
            replace (1 + lit_len t - 1) with (lit_len t) by lia.
            apply (IH _ true Hc Hok'). lia. }
          destruct inlit; cbn [app]; [exact Hl|].
          cbn [framed]. split; [reflexivity|]. split; [lia|]. exact Hl.
        * cbn [framed]. split; [destruct inlit; reflexivity|]. split; [lia|]. split; [exact Hv|].
          apply (IH _ false Hc Hok'). lia.
      + cbn [Rle.segs_aux Rle.lit_len framed].
        split; [destruct inlit; reflexivity|]. split; [rewrite pow63_val in Ht; rewrite pow64_val; lia|].
        apply (IH _ false Hc Hok'). lia.
  Qed.

  Lemma check_canonical : forall ss st lit st' pv inlit,
    framed lit ss -> check st ss = Ok st' -> st_inv st lit pv inlit ->
    ss = segs_aux inlit (runs_of ss) /\
    (inlit = true -> lit_len (runs_of ss) = lit) /\
    canon pv (runs_of ss).
  Proof.
    induction ss as [|s t IH]; intros st lit st' pv inlit Hf Hc Hi.
    - cbn in Hf. subst lit. cbn. auto.
    - apply check_cons in Hc. destruct Hc as (st1 & Hs & Hc).
      pose proof (step_next _ _ _ _ _ _ Hi Hs) as Hi1.
      apply step_inv in Hs. destruct Hs as [Hv _].
      apply (validate_st_inv _ _ _ _ _ Hi) in Hv; [|destruct s; cbn [framed] in Hf; tauto].
      specialize (IH st1).
      destruct s as [n|v|n v|n]; cbn [framed] in Hf; cbn [runs_of seg_run].
      + destruct Hf as (-> & Hn & Hf). destruct Hv as [_ ->].
        destruct (IH n st' pv true Hf Hc Hi1) as (E & L & C).
        specialize (L eq_refl). rewrite segs_aux_head, L, <- E by lia. repeat split; [discriminate|exact C].
      + destruct Hf as (Hl & _ & Hf).
        assert (inlit = true) as -> by (destruct inlit, Hi as [_ Hi]; [reflexivity|lia]).
        destruct (IH (lit - 1) st' (Some (Some v)) true Hf Hc Hi1) as (E & L & C).
        specialize (L eq_refl). cbn [Rle.segs_aux Rle.lit_len canon]. change (1 =? 1) with true. cbn iota.
        rewrite <- E. repeat split; auto; [lia..|discriminate].
      + destruct Hf as (-> & _ & _ & Hf). destruct Hv as [Hn Hv].
        destruct (IH 0 st' (Some (Some v)) false Hf Hc Hi1) as (E & _ & C).
        cbn [Rle.segs_aux Rle.lit_len canon]. assert ((n =? 1) = false) as -> by lia.
        rewrite <- E. repeat split; auto; [lia|discriminate].
      + destruct Hf as (-> & _ & Hf). destruct Hv as (Hn & Hv & Hnull).
        destruct (IH 0 st' (Some None) false Hf Hc Hi1) as (E & _ & C).
        cbn [Rle.segs_aux Rle.lit_len canon]. rewrite <- E. repeat split; auto. lia.
  Qed.

End RleCheck.

Section RleP.
  Variable V : Type.
  Variable veqb : V -> V -> bool.
  Variable enc : V -> bytes.
  Variable dec : bytes -> option (V * bytes).
  Variable nullable : bool.

  Notation rseg := (rseg V).
  Notation raw_parse := (raw_parse V dec).
  Notation check := (check V veqb nullable).
  Notation finish := (finish V).
  Notation segs_aux := (segs_aux V).
  Notation write_segs := (write_segs V enc).
  Notation seg_bytes := (seg_bytes V enc).
  Notation group := (group V veqb).
  Notation expand := (expand V).
  Notation rle_load := (rle_load V veqb dec nullable).
  Notation rle_save := (rle_save V veqb enc).
  Notation rle_save_runs := (rle_save_runs V enc).
  Notation canon := (canon V nullable).

  Theorem rle_load_no_panic b : rle_load b <> Panic.
  Proof.
    unfold Rle.rle_load, Rle.rle_load_segs.
    destruct (Rle.raw_parse V dec (S (length b)) 0 b) as [ss t].
    apply bind_no_panic; [apply check_no_panic|]. intros st _.
    destruct t; [|discriminate]. unfold Rle.finish. destruct (u64_max <=? _); discriminate.
  Qed.

  Variable wfv : V -> Prop.
  Hypothesis veqb_spec : forall a b, veqb a b = true <-> a = b.
  Hypothesis dec_enc : forall v r, wfv v -> dec (enc v ++ r) = Some (v, r).
  Hypothesis enc_nonempty : forall v, enc v <> [].
  Hypothesis dec_wf : forall b v r, wf_bytes b -> dec b = Some (v, r) -> wfv v /\ wf_bytes r.

  Notation framed := (framed V wfv).

  Lemma seg_bytes_nonempty s : seg_bytes s <> [].
  Proof.
    destruct s; cbn [Rle.seg_bytes].
    - apply hleb_senc_nonempty.
    - apply enc_nonempty.
    - intros H. apply app_eq_nil in H. destruct H as [H _]. revert H. apply hleb_senc_nonempty.
    - discriminate.
  Qed.

  Lemma write_segs_length ss : (length ss <= length (write_segs ss))%nat.
  Proof.
    unfold Rle.write_segs. rewrite flat_map_concat_map.
    apply concat_length_ge. intros s _. apply seg_bytes_nonempty.
  Qed.

  Lemma raw_parse_header fuel b :
    b <> [] ->
    Rle.raw_parse V dec (S fuel) 0 b =
      match hleb_s b with
      | None => ([], TErr)
      | Some (n, r) =>
        if (0 <? n)%Z then
          match dec r with
          | None => ([], TErr)
          | Some (v, r') => let (ss, t) := raw_parse fuel 0 r' in (RRun (Z.to_N n) v :: ss, t)
          end
        else if (n <? 0)%Z then
          if (n =? i64_min)%Z then ([], TErr)
          else let (ss, t) := raw_parse fuel (Z.to_N (- n)) r in (RHead (Z.to_N (- n)) :: ss, t)
        else
          match hleb_u r with
          | None => ([], TErr)
          | Some (c, r') => let (ss, t) := raw_parse fuel 0 r' in (RNull c :: ss, t)
          end
      end.
  Proof. intros H. destruct b; [congruence|]. reflexivity. Qed.

  Lemma parse_write : forall ss fuel lit,
    framed lit ss -> (length ss < fuel)%nat -> raw_parse fuel lit (write_segs ss) = (ss, TEnd).
  Proof.
    clear - dec_enc enc_nonempty. induction ss as [|s t IH]; intros fuel lit Hf Hfuel.
    - cbn in Hf. subst lit. destruct fuel; [cbn in Hfuel; lia|]. reflexivity.
    - destruct fuel as [|fuel]; [cbn in Hfuel; lia|]. cbn [length] in Hfuel.
      cbn [Rle.write_segs flat_map]. fold (write_segs t).
      assert (Hne : seg_bytes s ++ write_segs t <> []).
      { intros H. apply app_eq_nil in H. exact (seg_bytes_nonempty s (proj1 H)). }
      destruct s as [n|v|n v|n]; cbn [RleProofs.framed] in Hf.
      + destruct Hf as (-> & Hn & Hf).
        rewrite raw_parse_header by exact Hne.
        cbn [Rle.seg_bytes]. rewrite hleb_s_roundtrip.
        2:{ unfold in_i64. rewrite i64_min_val, i64_max_val. rewrite pow63_val in Hn. lia. }
        rewrite pow63_val in Hn.
        assert ((0 <? - Z.of_N n)%Z = false) as -> by lia.
        assert ((- Z.of_N n <? 0)%Z = true) as -> by lia.
        assert ((- Z.of_N n =? i64_min)%Z = false) as -> by (rewrite i64_min_val; lia).
        assert (Z.to_N (- - Z.of_N n) = n) as -> by lia.
        rewrite IH by (auto; lia). reflexivity.
      + destruct Hf as (Hl & Hv & Hf). cbn [Rle.raw_parse].
        assert ((0 <? lit) = true) as -> by lia.
        cbn [Rle.seg_bytes]. rewrite dec_enc by exact Hv.
        rewrite IH by (auto; lia). reflexivity.
      + destruct Hf as (-> & Hn & Hv & Hf).
        rewrite raw_parse_header by exact Hne.
        cbn [Rle.seg_bytes]. rewrite <- app_assoc. rewrite hleb_s_roundtrip.
        2:{ unfold in_i64. rewrite i64_min_val, i64_max_val. rewrite pow63_val in Hn. lia. }
        assert ((0 <? Z.of_N n)%Z = true) as -> by lia.
        rewrite dec_enc by exact Hv.
        assert (Z.to_N (Z.of_N n) = n) as -> by lia.
        rewrite IH by (auto; lia). reflexivity.
      + destruct Hf as (-> & Hn & Hf).
        rewrite raw_parse_header by exact Hne.
        cbn [Rle.seg_bytes app]. rewrite hleb_s_zero.
        change ((0 <? 0)%Z) with false. cbn iota.
        rewrite hleb_u_roundtrip by exact Hn.
        rewrite IH by (auto; lia). reflexivity.
  Qed.

  Lemma parse_framed : forall fuel lit b ss,
    wf_bytes b -> raw_parse fuel lit b = (ss, TEnd) -> framed lit ss.
  Proof.
    clear - dec_wf. induction fuel as [|fuel IH]; intros lit b ss Hwf H; [cbn in H; inversion H|].
    cbn [Rle.raw_parse] in H.
    destruct (0 <? lit) eqn:El.
    - destruct (dec b) as [[v r]|] eqn:Ed; [|inversion H].
      destruct (raw_parse fuel (lit - 1) r) as [ss' t] eqn:Ep. inversion H; subst.
      destruct (dec_wf _ _ _ Hwf Ed) as [Hv Hr].
      cbn [framed]. split; [lia|]. split; [exact Hv|]. eapply IH; eauto.
    - assert (lit = 0) by lia. subst lit.
      destruct b as [|b0 bt]; [inversion H; subst; reflexivity|].
      remember (b0 :: bt) as b.
      destruct (hleb_s b) as [[n r]|] eqn:Es; [|inversion H].
      pose proof (hleb_s_range _ _ _ Hwf Es) as Hrange.
      pose proof (hleb_s_wf_rest _ _ _ Hwf Es) as Hr.
      unfold in_i64 in Hrange. rewrite i64_min_val, i64_max_val in Hrange.
      destruct (0 <? n)%Z eqn:E1.
      + destruct (dec r) as [[v r']|] eqn:Ed; [|inversion H].
        destruct (raw_parse fuel 0 r') as [ss' t] eqn:Ep. inversion H; subst ss t.
        destruct (dec_wf _ _ _ Hr Ed) as [Hv Hr'].
        cbn [framed]. rewrite pow63_val. repeat split; try lia; auto. eapply IH; eauto.
      + destruct (n <? 0)%Z eqn:E2.
        * destruct (n =? i64_min)%Z eqn:E3; [inversion H|]. rewrite i64_min_val in E3.
          destruct (raw_parse fuel (Z.to_N (- n)) r) as [ss' t] eqn:Ep. inversion H; subst ss t.
          cbn [framed]. rewrite pow63_val. repeat split; try lia. eapply IH; eauto.
        * destruct (hleb_u r) as [[c r']|] eqn:Eu; [|inversion H].
          destruct (raw_parse fuel 0 r') as [ss' t] eqn:Ep. inversion H; subst ss t.
          cbn [framed]. split; [reflexivity|]. split; [eapply hleb_u_range; eauto|].
          eapply IH; [|eauto]. eapply hleb_u_wf_rest; eauto.
  Qed.

  Lemma parse_save_runs rs : framed 0 (segs_aux false rs) ->
    raw_parse (S (length (rle_save_runs rs))) 0 (rle_save_runs rs) = (segs_aux false rs, TEnd).
  Proof.
    intros Hf. apply parse_write; [exact Hf|].
    pose proof (write_segs_length (segs_aux false rs)). unfold Rle.rle_save_runs. lia.
  Qed.

  Definition wf_vals (l : list (option V)) : Prop :=
    Forall (fun x => match x with Some v => wfv v | None => nullable = true end) l /\
    N.of_nat (length l) < pow63.

  Lemma load_save_runs rs :
    Forall (fun r => match snd r with Some v => wfv v | None => True end) rs ->
    canon None rs -> total rs < pow63 ->
    rle_load (rle_save_runs rs) = Ok rs.
  Proof.
    intros Hok Hc Ht. unfold Rle.rle_load.
    rewrite parse_save_runs by exact (segs_framed V nullable wfv rs None false Hc Hok Ht).
    destruct (check_save_runs V veqb nullable veqb_spec rs Hc) as (st' & Q1 & Q2).
    { rewrite pow63_val in Ht. rewrite u64_max_val. lia. }
    unfold Rle.rle_load_segs. rewrite Q1. exact Q2.
  Qed.

  Theorem rle_load_save l : wf_vals l -> rle_load (rle_save l) = Ok (group l).
  Proof.
    intros [Hv Hl]. unfold Rle.rle_save. apply load_save_runs.
    - apply (grp_Forall _ _ (fun x => match x with Some v => wfv v | None => True end)).
      eapply Forall_impl; [|exact Hv]. intros [v|]; auto.
    - apply (canon_group V veqb nullable veqb_spec).
      eapply Forall_impl; [|exact Hv]. intros [v|] H; unfold nullok; [discriminate|auto].
    - rewrite total_group. exact Hl.
  Qed.

  Theorem rle_load_vals_save l : wf_vals l -> Rle.rle_load_vals V veqb dec nullable (rle_save l) = Ok l.
  Proof.
    intros H. unfold Rle.rle_load_vals. rewrite rle_load_save by exact H. cbn [bind].
    rewrite (expand_group V veqb veqb_spec). reflexivity.
  Qed.

  (* whatever loads is, at run level, the canonical encoding of its values *)
  Theorem rle_load_canonical b rs :
    wf_bytes b -> rle_load b = Ok rs ->
    Rle.raw_parse V dec (S (length b)) 0 b = (segs_aux false rs, TEnd) /\
    framed 0 (segs_aux false rs) /\ canon None rs.
  Proof.
    intros Hwf. unfold Rle.rle_load, Rle.rle_load_segs.
    destruct (Rle.raw_parse V dec (S (length b)) 0 b) as [ss t] eqn:Ep.
    destruct (check (cst_init V) ss) as [st| |] eqn:Ec; cbn [bind]; try discriminate.
    destruct t; try discriminate. intros Hfin.
    apply finish_inv in Hfin.
    pose proof (parse_framed _ _ _ _ Hwf Ep) as Hf.
    destruct (check_out _ _ _ _ _ _ Ec) as (Q1 & _).
    rewrite Q1 in Hfin. cbn [Rle.cst_init Rle.c_out] in Hfin. rewrite app_nil_r, rev_involutive in Hfin.
    destruct (check_canonical V veqb nullable veqb_spec wfv ss (cst_init V) 0 st None false Hf Ec
                (st_inv_init V)) as (E1 & _ & C).
    subst rs. rewrite <- E1. auto.
  Qed.

  Lemma resave_parse b rs : wf_bytes b -> rle_load b = Ok rs ->
    raw_parse (S (length (rle_save (expand rs)))) 0 (rle_save (expand rs)) = raw_parse (S (length b)) 0 b.
  Proof.
    intros Hwf H. destruct (rle_load_canonical b rs Hwf H) as (Ep & Hf & C).
    unfold Rle.rle_save. rewrite (group_expand V veqb nullable veqb_spec rs None C), Ep.
    exact (parse_save_runs rs Hf).
  Qed.

  Theorem rle_resave b rs :
    wf_bytes b -> rle_load b = Ok rs -> rle_load (rle_save (expand rs)) = Ok rs.
  Proof. intros Hwf H. unfold Rle.rle_load. rewrite (resave_parse b rs Hwf H). exact H. Qed.
End RleP.

(* the value codecs of lib.rs satisfy the codec laws *)
Definition wf_u64 (n : N) : Prop := n < pow64.
Definition wf_i64 (z : Z) : Prop := in_i64 z.
Definition wf_blob (s : bytes) : Prop := wf_bytes s /\ N.of_nat (length s) < pow64.
Definition wf_str (s : bytes) : Prop := wf_blob s /\ utf8_valid s = true.

Lemma u64_dec_enc v r : wf_u64 v -> u64_dec (u64_enc v ++ r) = Some (v, r).
Proof. apply hleb_u_roundtrip. Qed.
Lemma u64_enc_nonempty v : u64_enc v <> [].
Proof. apply hleb_uenc_nonempty. Qed.
Lemma u64_dec_wf b v r : wf_bytes b -> u64_dec b = Some (v, r) -> wf_u64 v /\ wf_bytes r.
Proof. intros Hwf H. split; [eapply hleb_u_range; eauto|eapply hleb_u_wf_rest; eauto]. Qed.

Lemma i64_dec_enc v r : wf_i64 v -> i64_dec (i64_enc v ++ r) = Some (v, r).
Proof. apply hleb_s_roundtrip. Qed.
Lemma i64_enc_nonempty v : i64_enc v <> [].
Proof. apply hleb_senc_nonempty. Qed.
Lemma i64_dec_wf b v r : wf_bytes b -> i64_dec b = Some (v, r) -> wf_i64 v /\ wf_bytes r.
Proof. intros Hwf H. split; [eapply hleb_s_range; eauto|eapply hleb_s_wf_rest; eauto]. Qed.

Lemma blob_dec_enc v r : wf_blob v -> blob_dec (blob_enc v ++ r) = Some (v, r).
Proof.
  intros [Hwf Hl]. unfold blob_dec, blob_enc. rewrite <- app_assoc, hleb_u_roundtrip by exact Hl.
  apply take_n_N_spec. auto.
Qed.
Lemma blob_enc_nonempty v : blob_enc v <> [].
Proof.
  unfold blob_enc. intros H. apply app_eq_nil in H. destruct H as [H _]. revert H. apply hleb_uenc_nonempty.
Qed.
Lemma blob_dec_wf b v r : wf_bytes b -> blob_dec b = Some (v, r) -> wf_blob v /\ wf_bytes r.
Proof.
  intros Hwf H. unfold blob_dec in H.
  destruct (hleb_u b) as [[n r0]|] eqn:Eu; [|discriminate].
  pose proof (hleb_u_range _ _ _ Hwf Eu) as Hn. pose proof (hleb_u_wf_rest _ _ _ Hwf Eu) as Hr0.
  apply take_n_N_spec in H. destruct H as [-> Hlen].
  apply wf_bytes_app in Hr0. destruct Hr0 as [Hv Hr].
  split; [|exact Hr]. split; [exact Hv|]. rewrite Hlen. exact Hn.
Qed.

Lemma str_dec_enc v r : wf_str v -> str_dec (str_enc v ++ r) = Some (v, r).
Proof.
  intros [Hb Hu]. unfold str_dec, str_enc. rewrite blob_dec_enc by exact Hb. rewrite Hu. reflexivity.
Qed.
Lemma str_enc_nonempty v : str_enc v <> [].
Proof. apply blob_enc_nonempty. Qed.
Lemma str_dec_wf b v r : wf_bytes b -> str_dec b = Some (v, r) -> wf_str v /\ wf_bytes r.
Proof.
  intros Hwf H. unfold str_dec in H. destruct (blob_dec b) as [[s r0]|] eqn:Eb; [|discriminate].
  destruct (utf8_valid s) eqn:Eu; [|discriminate]. inversion H; subst.
  destruct (blob_dec_wf _ _ _ Hwf Eb) as [Hs Hr]. split; [split; auto|exact Hr].
Qed.
